(* Executable model of rzmq's reconnect back-off arithmetic.
   Source: core/src/socket/core/state.rs  (struct ReconnectState, on_connection_failure,
   on_connection_success, is_due), plus the std primitives it calls:
     u32::saturating_pow, u32::min, u32::saturating_add,
     core::time::Duration::saturating_mul(u32), Duration::min, Instant + Duration.
   Durations are nanoseconds in N; a Rust Duration is (secs : u64, nanos : u32 < 10^9), so the
   largest one is DUR_MAX = (2^64-1)*10^9 + 999_999_999 ns. *)
From RZ Require Import Base.Prelude.
Local Open Scope N_scope.

Definition NS : N := 1000000000.
Definition U32MAX : N := 4294967295.                 (* 2^32 - 1 *)
Definition U64MAX : N := 18446744073709551615.       (* 2^64 - 1 *)
Definition I64MAX : N := 9223372036854775807.        (* 2^63 - 1 *)
Definition DUR_MAX : N := U64MAX * NS + 999999999.

(* ---- std primitives ---- *)

(* 2u32.saturating_pow(e): 2^e when it fits a u32 (e <= 31), u32::MAX otherwise.
   Written with the comparison on the exponent so that it stays computable for e near 2^32;
   Props/C17.v (C17_saturating_pow_spec) shows it equals N.min (2^e) U32MAX. *)
Definition sat_pow2_u32 (e : N) : N := if e <? 32 then 2 ^ e else U32MAX.

(* u32::saturating_add *)
Definition u32_sat_add (a b : N) : N := N.min (a + b) U32MAX.

(* core::time::Duration::checked_mul(self, rhs: u32), on the (secs, nanos) representation:
     total_nanos = nanos as u64 * rhs as u64;  extra_secs = total_nanos / NS;  nanos = total_nanos % NS;
     secs.checked_mul(rhs as u64)?.checked_add(extra_secs)?   *)
Definition std_dur_checked_mul (secs nanos rhs : N) : option (N * N) :=
  let total_nanos := nanos * rhs in
  let extra_secs := total_nanos / NS in
  let nanos' := total_nanos mod NS in
  let s := secs * rhs in
  if U64MAX <? s then None
  else let s' := s + extra_secs in
       if U64MAX <? s' then None else Some (s', nanos').
(* Duration::saturating_mul = checked_mul(..).unwrap_or(Duration::MAX) *)
Definition std_dur_sat_mul (secs nanos rhs : N) : N * N :=
  match std_dur_checked_mul secs nanos rhs with
  | Some r => r
  | None => (U64MAX, 999999999)
  end.
Definition dur_ns (d : N * N) : N := fst d * NS + snd d.
Definition dur_of_ns (n : N) : N * N := (n / NS, n mod NS).

(* the same on nanoseconds (what the rest of the model uses) *)
Definition dur_sat_mul (d m : N) : N := N.min (d * m) DUR_MAX.

(* Instant + Duration on Linux (Timespec { tv_sec : i64, tv_nsec < 10^9 }):
   `checked_add_duration(..).expect("overflow when adding duration to instant")`.
   None = the panic. Instants are (sec, nsec) with sec >= 0 (CLOCK_MONOTONIC). *)
Definition instant_add (now : N * N) (d : N) : option (N * N) :=
  let '(s, ns) := now in
  let s1 := s + d / NS in
  if I64MAX <? s1 then None
  else let ns1 := ns + d mod NS in
       if NS <=? ns1
       then (if I64MAX <? s1 + 1 then None else Some (s1 + 1, ns1 - NS))
       else Some (s1, ns1).

(* ---- ReconnectState ---- *)

Record rstate := { attempts : N;                     (* current_attempts : u32 *)
                   next_at : option (N * N) }.       (* next_attempt_at : Option<Instant> *)

Definition rstate_default : rstate := {| attempts := 0; next_at := None |}.

(* the delay computed by on_connection_failure (steps 1 and 2 of the Rust function) *)
Definition delay (base max att : N) : N :=
  let multiplier := sat_pow2_u32 (N.min att 31) in        (* 2u32.saturating_pow(attempts.min(31)) *)
  let d := dur_sat_mul base multiplier in                 (* base_ivl.saturating_mul(multiplier) *)
  if 0 <? max then N.min d max else d.                    (* if max_ivl > ZERO { delay.min(max_ivl) } *)

Inductive outcome (A : Type) := Done (a : A) | Panic.
Arguments Done {A}. Arguments Panic {A}.

(* on_connection_failure: returns (delay, new state), or Panic when `Instant::now() + delay` overflows *)
Definition on_failure (base max : N) (now : N * N) (st : rstate) : outcome (N * rstate) :=
  let d := delay base max (attempts st) in
  let att' := u32_sat_add (attempts st) 1 in             (* step 3; happens before the Instant add *)
  match instant_add now d with
  | None => Panic
  | Some t => Done (d, {| attempts := att'; next_at := Some t |})
  end.

Definition on_success (st : rstate) : rstate := {| attempts := 0; next_at := None |}.

(* Instant ordering, is_due *)
Definition instant_leb (a b : N * N) : bool :=
  (fst a <? fst b) || ((fst a =? fst b) && (snd a <=? snd b)).
Definition is_due (st : rstate) (now : N * N) : bool :=
  match next_at st with Some t => instant_leb t now | None => false end.

(* ---- a connection's life as seen by ReconnectState: a sequence of failures / successes ---- *)
Inductive rop := OpFail | OpSucc.

(* delays handed out along an op sequence (time is not advanced: `now` only matters for Panic) *)
Fixpoint run_ops (base max : N) (now : N * N) (st : rstate) (ops : list rop) : outcome (list N * rstate) :=
  match ops with
  | [] => Done ([], st)
  | OpSucc :: r => run_ops base max now (on_success st) r
  | OpFail :: r =>
      match on_failure base max now st with
      | Panic => Panic
      | Done (d, st') =>
          match run_ops base max now st' r with
          | Panic => Panic
          | Done (ds, st'') => Done (d :: ds, st'')
          end
      end
  end.

(* ---- the second back-off site: TcpConnecter::run_connect_loop (core/src/transport/tcp.rs),
   used while the peer REFUSES connections (the connecter actor stays alive and sleeps itself).
   `cur * 2` is Duration * u32, which panics on overflow: None. ---- *)
Definition dur_mul2 (d : N) : option N := if DUR_MAX <? d * 2 then None else Some (d * 2).

(* fast-forward at actor start: only when base > 0 and max is Some(m) with m > 0;
   `for _ in 0..initial_attempts.min(31) { cur = (cur * 2).min(max) }` *)
Fixpoint conn_ff (k : nat) (cur max : N) : option N :=
  match k with
  | O => Some cur
  | S k' => match dur_mul2 cur with
            | None => None
            | Some c2 => conn_ff k' (N.min c2 max) max
            end
  end.
Definition conn_initial (base : N) (maxopt : option N) (initial_attempts : N) : option N :=
  if 0 <? base then
    match maxopt with
    | Some m => if 0 <? m then conn_ff (N.to_nat (N.min initial_attempts 31)) base m else Some base
    | None => Some base
    end
  else Some base.

(* update of current_retry_delay after each wait inside the loop *)
Definition conn_next (base cur : N) (maxopt : option N) : option N :=
  if (0 <? cur) && (match maxopt with None => true | Some m => 0 <? m end) then
    match maxopt with
    | Some m => match dur_mul2 cur with None => None | Some c2 => Some (N.min c2 m) end
    | None => Some base
    end
  else if (match maxopt with None => false | Some m => 0 <? m end) then maxopt
  else Some cur.
