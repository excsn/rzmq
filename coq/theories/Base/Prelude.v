(* Common imports and small list/arith lemmas. No rzmq content. *)
From Coq Require Export List NArith ZArith Arith Lia Bool.
From Coq Require Export ZifyBool ZifyNat ZifyN.
Export ListNotations.
(* binary arithmetic stays folded under simpl/cbn (the models hold literals such as 2^64); unfold by name: cbn [..] *)
Global Arguments N.add : simpl never.
Global Arguments N.sub : simpl never.
Global Arguments N.mul : simpl never.
Global Arguments N.div : simpl never.
Global Arguments N.modulo : simpl never.
Global Arguments N.eqb : simpl never.
Global Arguments N.ltb : simpl never.
Global Arguments N.leb : simpl never.
Global Arguments N.land : simpl never.
Global Arguments N.lor : simpl never.
Global Arguments N.pow : simpl never.
Global Arguments N.of_nat : simpl never.
Global Arguments N.to_nat : simpl never.

Definition byte := N.
Definition bytes := list N.

Definition wf_bytes (l : bytes) : bool := forallb (fun b => N.ltb b 256) l.

Lemma wf_bytes_app a b : wf_bytes (a ++ b) = wf_bytes a && wf_bytes b.
Proof. unfold wf_bytes. apply forallb_app. Qed.

Lemma firstn_app_le {A} (n : nat) (a b : list A) :
  n <= length a -> firstn n (a ++ b) = firstn n a.
Proof.
  intros H. rewrite firstn_app. replace (n - length a) with 0 by lia.
  simpl. apply app_nil_r.
Qed.

Lemma skipn_app_le {A} (n : nat) (a b : list A) :
  n <= length a -> skipn n (a ++ b) = skipn n a ++ b.
Proof.
  intros H. rewrite skipn_app. replace (n - length a) with 0 by lia.
  reflexivity.
Qed.

Lemma nth_app_lt {A} (n : nat) (a b : list A) d :
  n < length a -> nth n (a ++ b) d = nth n a d.
Proof. intros. apply app_nth1. assumption. Qed.

Lemma firstn_length_le' {A} (n : nat) (l : list A) : n <= length l -> length (firstn n l) = n.
Proof. apply firstn_length_le. Qed.

Lemma skipn_skipn {A} (n m : nat) (l : list A) : skipn n (skipn m l) = skipn (m + n) l.
Proof.
  revert l. induction m as [|m IH]; intros l; simpl; [reflexivity|].
  destruct l as [|x l]; simpl.
  - destruct n; reflexivity.
  - apply IH.
Qed.

Lemma firstn_skipn_app {A} (n : nat) (l r : list A) :
  length l = n -> firstn n (l ++ r) = l /\ skipn n (l ++ r) = r.
Proof.
  intros <-. split.
  - rewrite firstn_app, Nat.sub_diag, firstn_all. simpl. apply app_nil_r.
  - rewrite skipn_app, Nat.sub_diag, skipn_all. reflexivity.
Qed.

Definition prefix {A} (a b : list A) : Prop := exists d, b = a ++ d.

Lemma prefix_refl {A} (a : list A) : prefix a a.
Proof. exists []. symmetry. apply app_nil_r. Qed.

Lemma prefix_trans {A} (a b c : list A) : prefix a b -> prefix b c -> prefix a c.
Proof. intros [d ->] [e ->]. exists (d ++ e). symmetry. apply app_assoc. Qed.

Lemma prefix_length {A} (a b : list A) : prefix a b -> length a <= length b.
Proof. intros [d ->]. rewrite app_length. lia. Qed.

Lemma prefix_antisym {A} (a b : list A) : prefix a b -> prefix b a -> a = b.
Proof.
  intros [d ->] [e H].
  assert (length (d ++ e) = 0) as Hl.
  { apply (f_equal (@length A)) in H. rewrite !app_length in *. lia. }
  rewrite app_length in Hl. destruct d; simpl in Hl; [|lia].
  symmetry. apply app_nil_r.
Qed.

Lemma prefix_app {A} (a d : list A) : prefix a (a ++ d).
Proof. exists d. reflexivity. Qed.

Lemma fold_left_inv {A B} (f : A -> B -> A) (P : A -> Prop) :
  (forall a x, P a -> P (f a x)) -> forall l a, P a -> P (fold_left f l a).
Proof. intros H l. induction l as [|x l IH]; intros a Ha; [exact Ha|]. apply IH, H, Ha. Qed.
