(* Two prefix-monotone stream functions connected by two FIFO channels (a two-node Kahn network).
   A schedule delivers, one step at a time, some more of the bytes one side has already emitted to
   the other side. Proved once: every reachable state is below every fixpoint, hence all quiescent
   reachable states coincide (the result does not depend on delivery order or fragmentation), and
   while something is undelivered a delivery step is enabled (no deadlock before quiescence).
   The handshake of two engines is an instance (Proofs/HandshakeProofs.v, through kahn_confluence).
   No rzmq content here. *)
From RZ Require Import Base.Prelude.

Section Kahn.
Variables FA FB : bytes -> bytes.   (* bytes emitted so far by A (resp. B) after receiving the given input *)
Hypothesis FA_mono : forall a d, prefix (FA a) (FA (a ++ d)).
Hypothesis FB_mono : forall a d, prefix (FB a) (FB (a ++ d)).

Lemma mono_prefix (F : bytes -> bytes) (Hm : forall a d, prefix (F a) (F (a ++ d))) x y :
  prefix x y -> prefix (F x) (F y).
Proof. intros [d ->]. apply Hm. Qed.

(* state: ia = bytes delivered to A so far (a prefix of what B emitted), ib likewise *)
Inductive Reach : bytes -> bytes -> Prop :=
| R0 : Reach [] []
| RtoB ia ib d : Reach ia ib -> d <> [] -> prefix (ib ++ d) (FA ia) -> Reach ia (ib ++ d)
| RtoA ia ib d : Reach ia ib -> d <> [] -> prefix (ia ++ d) (FB ib) -> Reach (ia ++ d) ib.

(* a delivery step, the empty delivery included *)
Lemma Reach_toB ia ib d : Reach ia ib -> prefix (ib ++ d) (FA ia) -> Reach ia (ib ++ d).
Proof. destruct d; [rewrite app_nil_r; auto | intros; apply RtoB; auto; discriminate]. Qed.
Lemma Reach_toA ia ib d : Reach ia ib -> prefix (ia ++ d) (FB ib) -> Reach (ia ++ d) ib.
Proof. destruct d; [rewrite app_nil_r; auto | intros; apply RtoA; auto; discriminate]. Qed.

(* nothing in flight: each side has received all the other has emitted - a fixpoint of (FA, FB) *)
Definition quiescent (ia ib : bytes) : Prop := ib = FA ia /\ ia = FB ib.

Lemma reach_inv ia ib : Reach ia ib -> prefix ib (FA ia) /\ prefix ia (FB ib).
Proof.
  induction 1 as [| ia ib d HR [IH1 IH2] Hd Hp | ia ib d HR [IH1 IH2] Hd Hp].
  - split; exists (FA []) + exists (FB []); reflexivity.
  - split; [exact Hp|]. eapply prefix_trans; [exact IH2|]. apply FB_mono.
  - split; [|exact Hp]. eapply prefix_trans; [exact IH1|]. apply FA_mono.
Qed.

Lemma reach_below_fixpoint a b : quiescent a b -> forall ia ib, Reach ia ib -> prefix ia a /\ prefix ib b.
Proof.
  intros [Hb Ha]. induction 1 as [| ia ib d HR [IH1 IH2] Hd Hp | ia ib d HR [IH1 IH2] Hd Hp].
  - split; [exists a | exists b]; reflexivity.
  - split; [exact IH1|]. eapply prefix_trans; [exact Hp|]. rewrite Hb.
    apply (mono_prefix FA FA_mono). exact IH1.
  - split; [|exact IH2]. eapply prefix_trans; [exact Hp|]. rewrite Ha.
    apply (mono_prefix FB FB_mono). exact IH2.
Qed.

(* confluence: the final streams do not depend on the schedule *)
Theorem kahn_confluence ia ib ia' ib' :
  Reach ia ib -> quiescent ia ib -> Reach ia' ib' -> quiescent ia' ib' -> ia = ia' /\ ib = ib'.
Proof.
  intros R1 Q1 R2 Q2.
  destruct (reach_below_fixpoint ia' ib' Q2 ia ib R1) as [A1 B1].
  destruct (reach_below_fixpoint ia ib Q1 ia' ib' R2) as [A2 B2].
  split; apply prefix_antisym; assumption.
Qed.

(* progress: a reachable state that is not quiescent has an enabled delivery *)
Theorem kahn_progress ia ib :
  Reach ia ib -> ~ quiescent ia ib -> exists ia2 ib2, Reach ia2 ib2 /\ (length ia + length ib < length ia2 + length ib2)%nat.
Proof.
  intros HR Hnq. destruct (reach_inv _ _ HR) as [[d1 H1] [d2 H2]].
  destruct d1 as [|x d1].
  - destruct d2 as [|y d2].
    + exfalso. apply Hnq. split; [rewrite H1, app_nil_r; reflexivity | rewrite H2, app_nil_r; reflexivity].
    + exists (ia ++ y :: d2), ib. split.
      * apply RtoA; [exact HR | discriminate | rewrite H2; apply prefix_refl].
      * rewrite app_length. cbn [length]. lia.
  - exists ia, (ib ++ x :: d1). split.
    + apply RtoB; [exact HR | discriminate | rewrite H1; apply prefix_refl].
    + rewrite app_length. cbn [length]. lia.
Qed.

(* every intermediate state is below the final one *)
Theorem kahn_monotone_to_final ia ib a b :
  Reach ia ib -> Reach a b -> quiescent a b -> prefix ia a /\ prefix ib b.
Proof. intros R1 R2 Q. exact (reach_below_fixpoint a b Q ia ib R1). Qed.

End Kahn.
