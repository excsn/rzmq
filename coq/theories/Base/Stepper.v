(* Generic "accumulator stepper": a state machine that looks at a byte buffer,
   and either needs more bytes or consumes a prefix and emits outputs.
   Proved once: if each step is stable under appending bytes, then the result of
   feeding a byte stream does not depend on how the stream is cut into chunks. *)
From RZ Require Import Base.Prelude.

Section Stepper.
Variables (S O : Type).

Inductive res := Need | Step (s : S) (n : nat) (o : list O).

Variable step : S -> bytes -> res.
Variable mu : S -> nat.
Variable M : nat.

Definition step_mono := forall s b d s' n o,
  step s b = Step s' n o -> step s (b ++ d) = Step s' n o.
Definition step_bounded := forall s b s' n o,
  step s b = Step s' n o -> n <= length b.
(* termination: a step consumes bytes (and lands on a state of measure <= M), or consumes
   nothing and strictly decreases the measure *)
Definition step_measure := forall s b s' n o,
  step s b = Step s' n o -> (0 < n /\ mu s' <= M) \/ (n = 0 /\ mu s' < mu s).

Hypothesis Hmono : step_mono.
Hypothesis Hbound : step_bounded.
Hypothesis Hmeas : step_measure.

Inductive Run : S -> bytes -> S -> bytes -> list O -> Prop :=
| RunNeed s b : step s b = Need -> Run s b s b []
| RunStep s b s' n o s'' r o' :
    step s b = Step s' n o -> Run s' (skipn n b) s'' r o' -> Run s b s'' r (o ++ o').

Lemma Run_det s b s1 r1 o1 s2 r2 o2 :
  Run s b s1 r1 o1 -> Run s b s2 r2 o2 -> s1 = s2 /\ r1 = r2 /\ o1 = o2.
Proof.
  intros H1. revert s2 r2 o2. induction H1 as [s b Hn | s b s' n o s'' r o' Hs HR IH]; intros s2 r2 o2 H2.
  - inversion H2; subst; [auto | congruence].
  - inversion H2; subst; [congruence|].
    match goal with H : step s b = Step ?a ?b' ?c |- _ => rewrite Hs in H; inversion H; subst end.
    match goal with H : Run _ _ s2 r2 _ |- _ => destruct (IH _ _ _ H) as (-> & -> & ->) end.
    auto.
Qed.

Lemma Run_quiescent s b s' r o : Run s b s' r o -> step s' r = Need.
Proof. induction 1; auto. Qed.

Lemma Run_app s b s1 r1 o1 d s2 r2 o2 :
  Run s b s1 r1 o1 -> Run s1 (r1 ++ d) s2 r2 o2 -> Run s (b ++ d) s2 r2 (o1 ++ o2).
Proof.
  intros H1. revert d s2 r2 o2.
  induction H1 as [s b Hn | s b s' n o s'' r o' Hs HR IH]; intros d s2 r2 o2 H2.
  - exact H2.
  - rewrite <- app_assoc. eapply RunStep.
    + apply Hmono. exact Hs.
    + rewrite skipn_app_le by (eapply Hbound; eauto). apply IH. exact H2.
Qed.

Lemma Run_suffix s b s' r o : Run s b s' r o -> exists c, b = c ++ r.
Proof.
  induction 1 as [s b Hn | s b s' n o s'' r o' Hs HR [c Hc]].
  - exists []. reflexivity.
  - exists (firstn n b ++ c). rewrite <- app_assoc, <- Hc. symmetry. apply firstn_skipn.
Qed.

(* a step that consumes exactly the front piece [c] of the buffer *)
Lemma RunStep_app s c rest s1 o1 s' r o :
  step s (c ++ rest) = Step s1 (length c) o1 -> Run s1 rest s' r o -> Run s (c ++ rest) s' r (o1 ++ o).
Proof.
  intros Hs HR. eapply RunStep; [exact Hs|].
  rewrite skipn_app, skipn_all, Nat.sub_diag. exact HR.
Qed.

(* executable pump with explicit fuel *)
Fixpoint pumpN (fuel : nat) (s : S) (b : bytes) : S * bytes * list O :=
  match fuel with
  | 0 => (s, b, [])
  | Datatypes.S f =>
      match step s b with
      | Need => (s, b, [])
      | Step s' n o => let '(s'', r, o') := pumpN f s' (skipn n b) in (s'', r, o ++ o')
      end
  end.

Definition weight (s : S) (b : bytes) : nat := length b * (Datatypes.S M) + mu s.
Definition pump (s : S) (b : bytes) : S * bytes * list O := pumpN (Datatypes.S (weight s b)) s b.

Lemma pumpN_Run fuel : forall s b, weight s b < fuel ->
  let '(s', r, o) := pumpN fuel s b in Run s b s' r o.
Proof.
  induction fuel as [|f IH]; intros s b Hw; [lia|].
  simpl. destruct (step s b) as [|s' n o] eqn:Hs.
  - apply RunNeed. exact Hs.
  - specialize (IH s' (skipn n b)).
    assert (weight s' (skipn n b) < f) as Hlt.
    { unfold weight in *. rewrite skipn_length.
      pose proof (Hbound _ _ _ _ _ Hs) as Hb.
      destruct (Hmeas _ _ _ _ _ Hs) as [[Hn Hm] | [-> Hm]]; [|rewrite Nat.sub_0_r; lia].
      (* a consumed byte pays for any measure up to M *)
      assert ((length b - n) * Datatypes.S M + Datatypes.S M <= length b * Datatypes.S M)
        by (rewrite <- Nat.mul_succ_l; apply Nat.mul_le_mono_r; lia).
      lia. }
    specialize (IH Hlt). destruct (pumpN f s' (skipn n b)) as [[s'' r] o'].
    eapply RunStep; eauto.
Qed.

Lemma pump_Run s b : let '(s', r, o) := pump s b in Run s b s' r o.
Proof. unfold pump. apply pumpN_Run. lia. Qed.

Lemma Run_pump s b s' r o : Run s b s' r o -> pump s b = (s', r, o).
Proof.
  intros H. pose proof (pump_Run s b) as H'. destruct (pump s b) as [[s1 r1] o1].
  destruct (Run_det _ _ _ _ _ _ _ _ H' H) as (-> & -> & ->). reflexivity.
Qed.

(* totality: pump always ends in a quiescent configuration (fuel never runs out) *)
Lemma pump_quiescent s b : let '(s', r, _) := pump s b in step s' r = Need.
Proof.
  pose proof (pump_Run s b) as H. destruct (pump s b) as [[s' r] o].
  eapply Run_quiescent; eauto.
Qed.

Lemma pump_idem s b : let '(s', r, o) := pump s b in pump s' r = (s', r, []).
Proof.
  pose proof (pump_quiescent s b) as H. destruct (pump s b) as [[s' r] o].
  apply Run_pump. apply RunNeed. exact H.
Qed.

Lemma pump_app s b d :
  pump s (b ++ d) =
  let '(s1, r1, o1) := pump s b in
  let '(s2, r2, o2) := pump s1 (r1 ++ d) in (s2, r2, o1 ++ o2).
Proof.
  pose proof (pump_Run s b) as H1. destruct (pump s b) as [[s1 r1] o1].
  pose proof (pump_Run s1 (r1 ++ d)) as H2. destruct (pump s1 (r1 ++ d)) as [[s2 r2] o2].
  apply Run_pump. eapply Run_app; eauto.
Qed.

(* feeding a list of chunks: append each chunk to the leftover and pump *)
Fixpoint feed (s : S) (buf : bytes) (chunks : list bytes) : S * bytes * list O :=
  match chunks with
  | [] => (s, buf, [])
  | c :: cs =>
      let '(s1, r1, o1) := pump s (buf ++ c) in
      let '(s2, r2, o2) := feed s1 r1 cs in (s2, r2, o1 ++ o2)
  end.

(* a non-empty list of chunks is one pump over their concatenation, whatever the start *)
Lemma feed_cons s buf c cs : feed s buf (c :: cs) = pump s (buf ++ concat (c :: cs)).
Proof.
  revert s buf c. induction cs as [|c' cs IH]; intros s buf c.
  - cbn [feed concat]. rewrite !app_nil_r. destruct (pump s (buf ++ c)) as [[s1 r1] o1].
    rewrite app_nil_r. reflexivity.
  - remember (c' :: cs) as rest eqn:E. cbn [feed concat].
    rewrite app_assoc, (pump_app s (buf ++ c)). destruct (pump s (buf ++ c)) as [[s1 r1] o1].
    rewrite E, IH. reflexivity.
Qed.

Lemma feed_quiescent_start s buf cs :
  step s buf = Need -> feed s buf cs = pump s (buf ++ concat cs).
Proof.
  intros Hq. destruct cs as [|c cs]; [|apply feed_cons].
  cbn. rewrite app_nil_r. symmetry. apply Run_pump, RunNeed, Hq.
Qed.

(* Chunk independence: from a quiescent configuration, two chunkings of the same byte
   string give the same final state, leftover and output sequence. *)
Theorem feed_chunk_independent s buf cs1 cs2 :
  step s buf = Need -> concat cs1 = concat cs2 -> feed s buf cs1 = feed s buf cs2.
Proof.
  intros Hq Hc. rewrite !feed_quiescent_start by exact Hq. rewrite Hc. reflexivity.
Qed.

Lemma pump_out_prefix s b d :
  prefix (snd (pump s b)) (snd (pump s (b ++ d))).
Proof.
  rewrite pump_app. destruct (pump s b) as [[s1 r1] o1].
  destruct (pump s1 (r1 ++ d)) as [[s2 r2] o2]. simpl. apply prefix_app.
Qed.

End Stepper.

Arguments Need {S O}.
Arguments Step {S O} s n o.
Arguments feed {S O} step mu M s buf chunks.
Arguments pump {S O} step mu M s b.
Arguments pumpN {S O} step fuel s b.
Arguments weight {S} mu M s b.
Arguments Run {S O} step _ _ _ _ _.
Arguments RunStep_app {S O step s c rest s1} o1 {s' r o}.
Arguments step_mono {S O} step.
Arguments step_bounded {S O} step.
Arguments step_measure {S O} step mu M.

Record stepper_ok {S O : Type} (step : S -> bytes -> res S O) (mu : S -> nat) (M : nat) : Prop :=
  { ok_mono : step_mono step; ok_bounded : step_bounded step; ok_measure : step_measure step mu M }.

(* the usual way to meet the obligations: a step either consumes from the buffer or lowers the measure *)
Lemma stepper_ok_intro {S O : Type} (step : S -> bytes -> res S O) (mu : S -> nat) (M : nat) :
  step_mono step ->
  (forall s b, match step s b with
               | Need => True
               | Step s' n _ => (0 < n <= length b /\ mu s' <= M) \/ (n = 0 /\ mu s' < mu s)
               end) ->
  stepper_ok step mu M.
Proof.
  intros Hm H. constructor; [exact Hm | |]; intros s b s' n o Hs; specialize (H s b); rewrite Hs in H; lia.
Qed.

(* The instances use the lemmas in this form: the three obligations come bundled in [stepper_ok]. *)
Section Ok.
Context {S O : Type} {step : S -> bytes -> res S O} {mu : S -> nat} {M : nat}.
Variable ok : stepper_ok step mu M.

Lemma sk_pump_Run s b : let '(s', r, o) := pump step mu M s b in Run step s b s' r o.
Proof. apply pump_Run; apply ok. Qed.
Lemma sk_Run_pump s b s' r o : Run step s b s' r o -> pump step mu M s b = (s', r, o).
Proof. apply Run_pump; apply ok. Qed.
Lemma sk_pump_quiescent s b : let '(s', r, _) := pump step mu M s b in step s' r = Need.
Proof. apply pump_quiescent; apply ok. Qed.
Lemma sk_pump_app s b d :
  pump step mu M s (b ++ d) =
  let '(s1, r1, o1) := pump step mu M s b in
  let '(s2, r2, o2) := pump step mu M s1 (r1 ++ d) in (s2, r2, o1 ++ o2).
Proof. apply pump_app; apply ok. Qed.
Lemma sk_Run_app s b s1 r1 o1 d s2 r2 o2 :
  Run step s b s1 r1 o1 -> Run step s1 (r1 ++ d) s2 r2 o2 -> Run step s (b ++ d) s2 r2 (o1 ++ o2).
Proof. apply Run_app; apply ok. Qed.
Lemma sk_feed_quiescent_start s buf cs :
  step s buf = Need -> feed step mu M s buf cs = pump step mu M s (buf ++ concat cs).
Proof. apply feed_quiescent_start; apply ok. Qed.
Lemma sk_feed_cons s buf c cs :
  feed step mu M s buf (c :: cs) = pump step mu M s (buf ++ concat (c :: cs)).
Proof. apply feed_cons; apply ok. Qed.
Lemma sk_feed_chunk_independent s buf cs1 cs2 :
  step s buf = Need -> concat cs1 = concat cs2 -> feed step mu M s buf cs1 = feed step mu M s buf cs2.
Proof. apply feed_chunk_independent; apply ok. Qed.
Lemma sk_pump_out_prefix s b d :
  prefix (snd (pump step mu M s b)) (snd (pump step mu M s (b ++ d))).
Proof. apply pump_out_prefix; apply ok. Qed.
End Ok.
