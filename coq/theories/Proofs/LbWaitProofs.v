(* wait_for_connection vs add_connection: an invariant of the waiter that excludes the lost wake-up on every schedule
   with no operation of another task between check and creation of the future, hence on every schedule of the
   fixed order; several waiters on one balancer each behave as the single waiter does. *)
From RZ Require Import Base.Prelude Model.Balancer Model.LbWait.

(* no operation of another task lands between the check and the creation of the Notified future *)
Fixpoint gap_free (s : wst) (xs : list sch) : Prop :=
  match xs with
  | [] => True
  | x :: xs' => match x with SE _ => w_pc s <> PCreate | SW => True end /\ gap_free (sstep s x) xs'
  end.

(* the invariant: the fixed order never reaches the check-then-create states; between check and create
   the waiter has seen no peer and no deactivation; and a waiter whose future still shows the counter value
   `seen` it was created with is asleep only while there is neither peer nor deactivation, because
   connecting a first peer and deactivating both call notify_waiters *)
Definition J (s : wst) : Prop :=
  (w_fixed s = true -> w_pc s <> PCreate /\ w_pc s <> PCheck) /\
  match w_pc s with
  | PCreate => peers (w_bal s) = [] /\ w_deact s = false
  | PFCheck seen => seen <= w_calls s
  | PAwait seen => seen <= w_calls s /\ (w_calls s = seen -> peers (w_bal s) = [] /\ w_deact s = false)
  | _ => True
  end.

Lemma J_init f : J (w0 f).
Proof. split; [intros _; split; discriminate|exact I]. Qed.

Lemma J_done s ok : J (set_pc s (PDone ok)).
Proof. split; [intros _; split; discriminate|exact I]. Qed.

Lemma J_start s : J (set_pc s (if w_fixed s then PFCreate else PCheck)).
Proof. unfold J. simpl. destruct (w_fixed s); (split; [intros E; try discriminate E; split; discriminate|exact I]). Qed.

Lemma check_cases s e : check s e = PDone false /\ w_deact s = true \/
                        check s e = PDone true /\ w_deact s = false /\ peers (w_bal s) <> [] \/
                        check s e = e /\ w_deact s = false /\ peers (w_bal s) = [].
Proof.
  unfold check. destruct (w_deact s); [tauto|]. destruct (peers (w_bal s)); [tauto|].
  right. left. repeat split; discriminate.
Qed.

(* the check ends the wait, or has seen no peer and no deactivation *)
Lemma J_check s e : (peers (w_bal s) = [] -> w_deact s = false -> J (set_pc s e)) -> J (set_pc s (check s e)).
Proof.
  intros H. destruct (check_cases s e) as [[-> _]|[[-> _]|[-> [Hd Hp]]]]; [apply J_done|apply J_done|exact (H Hp Hd)].
Qed.

Lemma J_wstep s s' : J s -> wstep s = Some s' -> J s'.
Proof.
  unfold wstep. intros [Hf HJ].
  destruct (w_pc s) as [| | | |seen|seen|ok] eqn:Epc; intros H; try discriminate H; try injection H as <-.
  - apply J_start.
  - apply J_check. intros Hp Hd. split; [intros E; destruct (Hf E) as [_ Hc]; congruence|simpl; auto].
  - split; [intros _; split; discriminate|]. simpl. split; [apply le_n|intros _; exact HJ].
  - split; [intros _; split; discriminate|apply le_n].
  - apply J_check. intros Hp Hd. split; [intros _; split; discriminate|]. simpl. split; [exact HJ|auto].
  - destruct (w_calls s =? seen); [discriminate H|]. injection H as <-. apply J_start.
Qed.

(* another task's operation leaves pc and w_fixed alone, never lowers the notify_waiters counter, and cannot
   connect a first peer or deactivate without raising it *)
Lemma estep_calls_le s e : w_calls s <= w_calls (estep s e).
Proof. destruct e as [u| |]; simpl; [destruct (add_notifies u (w_bal s))|..]; auto. Qed.

Lemma add_to_empty_notifies u b : peers b = [] -> add_notifies u b = true.
Proof. intros E. unfold add_notifies. rewrite E. reflexivity. Qed.

Lemma remove_empty u b : peers b = [] -> peers (remove u b) = [].
Proof. intros E. unfold remove. rewrite E. simpl. exact E. Qed.

Lemma estep_quiet s e : w_calls (estep s e) = w_calls s -> peers (w_bal s) = [] -> w_deact s = false ->
  peers (w_bal (estep s e)) = [] /\ w_deact (estep s e) = false.
Proof.
  destruct e as [u|u|]; simpl; intros Hc Hp Hd.
  - rewrite add_to_empty_notifies in Hc by exact Hp. destruct (n_Sn _ (eq_sym Hc)).
  - split; [apply remove_empty; exact Hp|exact Hd].
  - destruct (n_Sn _ (eq_sym Hc)).
Qed.

Lemma J_estep s e : J s -> w_pc s <> PCreate -> J (estep s e).
Proof.
  intros [Hf HJ] Hne. pose proof (estep_calls_le s e) as Hle. pose proof (estep_quiet s e) as Hq.
  assert (Hpc : w_pc (estep s e) = w_pc s) by (destruct e; reflexivity).
  split; [destruct e; exact Hf|]. rewrite Hpc. destruct (w_pc s); auto; [congruence|exact (Nat.le_trans _ _ _ HJ Hle)|].
  destruct HJ as [H1 H2]. split; [exact (Nat.le_trans _ _ _ H1 Hle)|]. intros Hc.
  assert (Hcs : w_calls s = seen) by (apply Nat.le_antisymm; [rewrite <- Hc; exact Hle|exact H1]).
  destruct (H2 Hcs) as [Hp Hd]. apply Hq; [rewrite Hcs; exact Hc|exact Hp|exact Hd].
Qed.

Lemma J_sstep s x : J s -> match x with SE _ => w_pc s <> PCreate | SW => True end -> J (sstep s x).
Proof.
  intros HJ Hx. destruct x as [|e]; simpl; [|apply J_estep; assumption].
  destruct (wstep s) as [s'|] eqn:E; [eapply J_wstep; eauto|exact HJ].
Qed.

Lemma J_srun xs : forall s, J s -> gap_free s xs -> J (srun xs s).
Proof.
  induction xs as [|x xs IH]; intros s HJ Hg; [exact HJ|]. destruct Hg as [Hx Hg].
  apply IH; [apply J_sstep; assumption|exact Hg].
Qed.

Lemma J_not_lost s : J s -> lost s = false.
Proof.
  unfold J, lost. intros [_ HJ]. destruct (w_pc s); auto.
  destruct (Nat.eqb_spec (w_calls s) seen) as [E|]; [|reflexivity]. destruct HJ as [_ HJ].
  destruct (HJ E) as [-> _]. reflexivity.
Qed.

Lemma sstep_fixed s x : w_fixed (sstep s x) = w_fixed s.
Proof.
  destruct x as [|[]]; try reflexivity. simpl. unfold wstep.
  destruct (w_pc s); try reflexivity. destruct (_ =? _); reflexivity.
Qed.

(* when the future is created before the check, no schedule has the window: J itself excludes PCreate *)
Lemma J_srun_fixed xs : forall s, J s -> w_fixed s = true -> J (srun xs s).
Proof.
  induction xs as [|x xs IH]; intros s HJ Hf; [exact HJ|]. apply IH; [|rewrite sstep_fixed; exact Hf].
  apply J_sstep; [exact HJ|]. destruct x; [exact I|apply HJ, Hf].
Qed.

Theorem wait_fixed_safe xs : lost (srun xs (w0 true)) = false.
Proof. apply J_not_lost, J_srun_fixed; [apply J_init|reflexivity]. Qed.

Lemma nth_set_nth_same {A} (d : A) : forall l i x, (i < length l)%nat -> nth i (set_nth i x l) d = x.
Proof. induction l as [|h t IH]; intros [|i] x H; cbn in *; try lia; [reflexivity|apply IH; lia]. Qed.
Lemma nth_set_nth_other {A} (d : A) : forall l i j x, i <> j -> nth j (set_nth i x l) d = nth j l d.
Proof.
  induction l as [|h t IH]; intros [|i] [|j] x H; cbn; try reflexivity; try congruence. apply IH. congruence.
Qed.
Lemma set_nth_length {A} : forall (l : list A) i x, length (set_nth i x l) = length l.
Proof. induction l as [|h t IH]; intros [|i] x; cbn; auto. Qed.

Lemma estep_indep_pc s e : forall p,
  w_bal (estep (set_pc s p) e) = w_bal (estep s e) /\ w_calls (estep (set_pc s p) e) = w_calls (estep s e) /\
  w_deact (estep (set_pc s p) e) = w_deact (estep s e).
Proof. intros p. destruct e; cbn; auto. Qed.

Lemma wstep_set_pc s s' : wstep s = Some s' -> s' = set_pc s (w_pc s').
Proof.
  unfold wstep. destruct (w_pc s); try destruct (_ =? _); intros H; try discriminate H; injection H as <-; reflexivity.
Qed.

(* waiter i of the shared system behaves exactly like the single-waiter model under the part of the schedule it sees *)
Lemma mproj_step m x i : (i < length (m_pcs m))%nat ->
  mproj (mstep m x) i = fold_left sstep (msched_of i x) (mproj m i) /\ length (m_pcs (mstep m x)) = length (m_pcs m).
Proof.
  intros Hi. destruct x as [j|e]; cbn [mstep msched_of].
  2:{ split; [|reflexivity]. destruct e; reflexivity. }
  destruct (Nat.eqb_spec j i) as [->|Hne]; cbn [fold_left sstep].
  - rewrite (proj2 (Nat.ltb_lt _ _) Hi). destruct (wstep (mproj m i)) as [s'|] eqn:Ew; [|split; reflexivity].
    cbn [m_pcs]. rewrite set_nth_length. split; [|reflexivity].
    rewrite (wstep_set_pc _ _ Ew) at 2. unfold mproj. cbn [m_bal m_calls m_deact m_pcs].
    rewrite nth_set_nth_same by exact Hi. reflexivity.
  - destruct (_ <? _); [destruct (wstep _)|]; try (split; reflexivity).
    unfold mproj. cbn [m_bal m_calls m_deact m_pcs]. rewrite nth_set_nth_other, set_nth_length by exact Hne.
    split; reflexivity.
Qed.

Lemma mproj_run : forall xs m i, (i < length (m_pcs m))%nat ->
  mproj (mrun xs m) i = srun (concat (map (msched_of i) xs)) (mproj m i) /\ length (m_pcs (mrun xs m)) = length (m_pcs m).
Proof.
  induction xs as [|x xs IH]; intros m i Hi; [cbn; auto|].
  cbn [mrun fold_left map concat]. destruct (mproj_step m x i Hi) as [H1 H2].
  fold (mrun xs (mstep m x)). destruct (IH (mstep m x) i ltac:(rewrite H2; exact Hi)) as [I1 I2].
  rewrite I1, H1, I2, H2. unfold srun. rewrite fold_left_app. split; reflexivity.
Qed.

Definition mlost (m : mwst) (i : nat) : bool := lost (mproj m i).
