(* The ready-pipe-queue protocol: invariant over every schedule, and its consequences
   (no stale pop, exactly-once in order, no lost wake-up / deadlock freedom, cancel safety). *)
From RZ Require Import Base.Prelude Model.Rpq.

Lemma nodup_app_l {A} (a b : list A) : NoDup (a ++ b) -> NoDup a.
Proof.
  induction a as [|x a IH]; intros H; [constructor|]. inversion H as [|? ? Hn Hd]; subst.
  constructor; [intros Hi; apply Hn; apply in_or_app; left; exact Hi|apply IH; exact Hd].
Qed.

Lemma existsb_false {A} (f : A -> bool) l : existsb f l = false -> forall x, In x l -> f x = false.
Proof.
  intros H x Hx. destruct (f x) eqn:E; [|reflexivity].
  rewrite (proj2 (existsb_exists f l)) in H by eauto. discriminate.
Qed.

Lemma upd_eq {A} (f : nat -> A) i v : upd f i v i = v.
Proof. unfold upd. rewrite Nat.eqb_refl. reflexivity. Qed.
Lemma upd_neq {A} (f : nat -> A) i j v : j <> i -> upd f i v j = f j.
Proof. unfold upd. intros H. destruct (Nat.eqb_spec j i); congruence. Qed.

Lemma csum_ext f cs cs' n : (forall j, j < n -> cs' j = cs j) -> csum f cs' n = csum f cs n.
Proof. induction n as [|n IH]; intros H; cbn [csum]; [reflexivity|]. rewrite IH, H by auto. reflexivity. Qed.
(* when thread i moves, a sum over the threads changes by that thread's term *)
Lemma csum_upd f cs i v n : i < n -> csum f (upd cs i v) n = (csum f cs n - f (cs i) + f v)%Z.
Proof.
  intros Hi. induction n as [|n IH]; [lia|]. cbn [csum]. destruct (Nat.eq_dec i n) as [->|Hne].
  - rewrite upd_eq, (csum_ext f cs (upd cs n v) n) by (intros; apply upd_neq; lia). lia.
  - rewrite IH, upd_neq by lia. lia.
Qed.
Lemma csum_mono f g cs n : (forall c, f c <= g c)%Z -> (csum f cs n <= csum g cs n)%Z.
Proof. intros H. induction n; cbn [csum]; [lia|]. specialize (H (cs n)). lia. Qed.
Lemma csum_mono_term f g cs n i : (forall c, f c <= g c)%Z -> i < n ->
  (csum f cs n + (g (cs i) - f (cs i)) <= csum g cs n)%Z.
Proof.
  intros H. induction n as [|n IH]; intros Hi; [lia|]. cbn [csum]. destruct (Nat.eq_dec i n) as [->|Hne].
  - pose proof (csum_mono f g cs n H). lia.
  - specialize (IH ltac:(lia)). specialize (H (cs n)). lia.
Qed.
Lemma csum_zero f cs n : (forall k, k < n -> f (cs k) = 0%Z) -> csum f cs n = 0%Z.
Proof. induction n as [|n IH]; intros H; cbn [csum]; [reflexivity|]. rewrite IH, H by auto. reflexivity. Qed.
Lemma csum_nonneg f cs n : (forall c, 0 <= f c)%Z -> (0 <= csum f cs n)%Z.
Proof. intros H. induction n; cbn [csum]; [lia|]. specialize (H (cs n)). lia. Qed.
Lemma csum_ge_term f cs n i : (forall c, 0 <= f c)%Z -> i < n -> (f (cs i) <= csum f cs n)%Z.
Proof.
  intros H Hi. pose proof (csum_mono_term (fun _ => 0%Z) f cs n i H Hi) as M.
  rewrite csum_zero in M by reflexivity. lia.
Qed.
Lemma csum_pos_exists f cs n : (0 < csum f cs n)%Z -> exists i, i < n /\ (0 < f (cs i))%Z.
Proof.
  induction n as [|n IH]; cbn [csum]; intros H; [lia|].
  destruct (Z.ltb_spec 0 (f (cs n))); [exists n; split; [lia|assumption]|].
  destruct IH as (i & Hi & Hf); [lia|]. exists i. split; [lia|exact Hf].
Qed.

Lemma b2z_range b : (0 <= b2z b <= 1)%Z.
Proof. destruct b; simpl; lia. Qed.
Lemma c_tok_nonneg p c : (0 <= c_tok p c)%Z.
Proof. destruct c; simpl; try apply Z.le_refl; apply b2z_range. Qed.
Lemma c_tns_nonneg p c : (0 <= c_tns p c)%Z.
Proof. destruct c; simpl; try apply Z.le_refl; apply b2z_range. Qed.
Lemma c_c3_nonneg p c : (0 <= c_c3 p c)%Z.
Proof. destruct c; simpl; try apply Z.le_refl; apply b2z_range. Qed.
Lemma c_tns_le_tok p c : (c_tns p c <= c_tok p c)%Z.
Proof. destruct c; simpl; try apply Z.le_refl; apply b2z_range. Qed.
Lemma p_arm_range pc : (0 <= p_arm pc <= 1)%Z.
Proof. destruct pc; simpl; try lia; destruct hz; lia. Qed.
Lemma p_unc_range pc : (0 <= p_unc pc <= 1)%Z.
Proof. destruct pc; simpl; lia. Qed.
Lemma p_infl_nonneg pc : (0 <= p_infl pc)%Z.
Proof. destruct pc; simpl; lia. Qed.
Lemma p_unc_le_infl pc : (p_unc pc <= p_infl pc)%Z.
Proof. destruct pc; simpl; lia. Qed.
Lemma c_tok_pipe p pc : (0 < c_tok p pc)%Z -> c_pipe pc = Some p.
Proof.
  destruct pc; cbn [c_tok c_pipe]; try lia; destruct (Nat.eqb_spec q p) as [->|]; cbn [andb b2z]; try reflexivity; lia.
Qed.
Lemma c_tok_holds p pc : (0 < c_tok p pc)%Z -> c_holds p pc = true.
Proof. intros H. unfold c_holds. rewrite (c_tok_pipe p pc H). apply Nat.eqb_refl. Qed.
Lemma c_not_holds p pc : c_holds p pc = false -> c_tok p pc = 0%Z /\ c_tns p pc = 0%Z /\ c_c3 p pc = 0%Z.
Proof.
  unfold c_holds. destruct pc; cbn [c_pipe c_tok c_tns c_c3]; intros H; try rewrite H; cbn [andb b2z]; auto.
Qed.

Lemma cnt_nonneg p l : (0 <= cnt p l)%Z.
Proof. induction l as [|q l IH]; cbn [cnt]; [lia|]. pose proof (b2z_range (q =? p)). lia. Qed.
Lemma cnt_app p l r : cnt p (l ++ r) = (cnt p l + cnt p r)%Z.
Proof. induction l as [|q l IH]; cbn [cnt app]; [reflexivity|]. rewrite IH. lia. Qed.
Lemma cnt_pos p l : (0 < cnt p l)%Z <-> In p l.
Proof.
  induction l as [|q l IH]; cbn [cnt In]; [lia|]. pose proof (cnt_nonneg p l).
  destruct (Nat.eqb_spec q p); cbn [b2z]; [split; [auto|lia]|].
  rewrite <- IH. split; [right; lia|intros [?|?]; [contradiction|lia]].
Qed.
Lemma cnt_nodup l : (forall p, cnt p l <= 1)%Z -> NoDup l.
Proof.
  induction l as [|q l IH]; intros H; constructor.
  - rewrite <- cnt_pos. specialize (H q). cbn [cnt] in H. rewrite Nat.eqb_refl in H. cbn [b2z] in H. lia.
  - apply IH. intros p. specialize (H p). cbn [cnt] in H. pose proof (b2z_range (q =? p)). lia.
Qed.

(* a duplicate-free list of numbers below n that misses q < n is shorter than n *)
Lemma short_ready (l : list nat) n q :
  (forall p, cnt p l <= 1)%Z -> (forall r, In r l -> r < n) -> q < n -> cnt q l = 0%Z -> length l < n.
Proof.
  intros Hc Hr Hq H0.
  assert (Hnd : NoDup (q :: l)). { constructor; [rewrite <- cnt_pos; lia|apply cnt_nodup; exact Hc]. }
  assert (Hincl : incl (q :: l) (seq 0 n)).
  { intros r [<-|Hi]; apply in_seq; [lia|]. specialize (Hr r Hi). lia. }
  pose proof (NoDup_incl_length Hnd Hincl) as H. rewrite seq_length in H. simpl in H. lia.
Qed.

Lemma taken_of_snoc p s s' qx : taken s' = taken s ++ [qx] ->
  taken_of p s' = taken_of p s ++ (if fst qx =? p then [snd qx] else []).
Proof.
  unfold taken_of. intros ->. rewrite filter_app, map_app. cbn [filter]. destruct (fst qx =? p); reflexivity.
Qed.
Lemma taken_of_app p s qx :
  taken_of p (set_taken s (taken s ++ [qx])) = taken_of p s ++ (if fst qx =? p then [snd qx] else []).
Proof. apply taken_of_snoc. reflexivity. Qed.

(* a pipe's ready token exists exactly while queued > 0 *)
Definition tok_ok (q t : Z) : Prop := (q = 0 /\ t = 0)%Z \/ (0 < q /\ t = 1)%Z.

(* what a thread that holds a of a pipe's tokens may do at once to queued (+ dq) and to the tokens (+ dt):
   nothing; count an item, creating the token iff queued was 0 (if the thread holds the token already,
   queued was not 0); uncount an item while holding the token, which stays iff queued was more than 1 *)
Inductive tok_delta (q a : Z) : Z -> Z -> Prop :=
| tok_keep : tok_delta q a 0 0
| tok_first : q = 0%Z -> tok_delta q a 1 1
| tok_more : q <> 0%Z -> tok_delta q a 1 0
| tok_held : a = 1%Z -> tok_delta q a 1 0
| tok_last : a = 1%Z -> tok_delta q a (-1) (b2z (1 <? q)%Z - 1).

Lemma tok_delta_ok q a dq dt t : tok_delta q a dq dt -> (a <= t)%Z -> tok_ok q t -> tok_ok (q + dq) (t + dt).
Proof. unfold tok_ok. intros [|?|?|?|?]; try destruct (Z.ltb_spec 1 q); cbn [b2z]; lia. Qed.

Record RpqInv (c : cfg) (s : st) : Prop := mkInv {
  (* the counter lags the channel by the in-flight steps only *)
  i_q : forall p, queued s p = (Z.of_nat (length (chan s p)) - p_unc (prod s p) + csum (c_tns p) (cons s) (nc c))%Z;
  (* at most one ready token per pipe, and it exists exactly while queued > 0 (no underflow) *)
  i_tok : forall p, (queued s p = 0 /\ tokens c s p = 0)%Z \/ (0 < queued s p /\ tokens c s p = 1)%Z;
  i_res : forall p, reserved s p = (queued s p + p_infl (prod s p) + csum (c_c3 p) (cons s) (nc c))%Z;
  i_cap : forall p, length (chan s p) <= cap c p;
  i_fifo : forall p, pushed s p = taken_of p s ++ chan s p;
  i_rng : forall q, In q (ready s) -> q < np c;
  i_crng : forall i q, c_pipe (cons s i) = Some q -> q < np c;
  (* the arming sends never find the ready list full *)
  i_nopark_p : forall p, prod s p <> SArm true;
  i_nopark_c : forall i b q x, cons s i <> CArm b q x true
}.

Lemma inv_init c pp cp : RpqInv c (init pp cp).
Proof.
  constructor; cbn [init chan queued reserved ready prod cons pushed taken In c_pipe]; intros; try discriminate; try tauto.
  - cbn [p_unc length]. rewrite csum_zero by reflexivity. reflexivity.
  - left. unfold tokens. cbn [ready prod cons init cnt p_arm]. rewrite csum_zero by reflexivity. lia.
  - cbn [p_infl]. rewrite csum_zero by reflexivity. reflexivity.
  - simpl. lia.
Qed.

(* the three places where pipe p's token can be, spelt out for lia *)
Lemma inv_tok c s p : RpqInv c s ->
  (0 <= cnt p (ready s) /\ 0 <= p_arm (prod s p) /\ 0 <= csum (c_tok p) (cons s) (nc c))%Z /\
  tok_ok (queued s p) (cnt p (ready s) + p_arm (prod s p) + csum (c_tok p) (cons s) (nc c)).
Proof.
  intros HI. pose proof (cnt_nonneg p (ready s)). pose proof (p_arm_range (prod s p)).
  pose proof (csum_nonneg (c_tok p) (cons s) (nc c) (c_tok_nonneg p)). split; [lia|exact (i_tok _ _ HI p)].
Qed.

Lemma ready_room c s q : RpqInv c s -> np c <= rcap c -> q < np c -> cnt q (ready s) = 0%Z -> rroom c s = true.
Proof.
  intros HI Hcap Hq H0. unfold rroom. apply Nat.ltb_lt.
  assert (Hc : forall p, (cnt p (ready s) <= 1)%Z) by (intros p; pose proof (inv_tok c s p HI); unfold tok_ok in *; lia).
  pose proof (short_ready (ready s) (np c) q Hc (i_rng _ _ HI) Hq H0). lia.
Qed.

Lemma parm_room c s p : RpqInv c s -> np c <= rcap c -> p < np c -> p_arm (prod s p) = 1%Z -> rroom c s = true.
Proof.
  intros HI Hcap Hp Ha. apply (ready_room c s p HI Hcap Hp). pose proof (inv_tok c s p HI). unfold tok_ok in *. lia.
Qed.

(* a consumer that holds pipe q's token will find room for it in the ready list *)
Lemma tok_room c s i q : RpqInv c s -> np c <= rcap c -> i < nc c -> c_tok q (cons s i) = 1%Z -> rroom c s = true.
Proof.
  intros HI Hcap Hi Ht. assert (Hq : c_pipe (cons s i) = Some q) by (apply c_tok_pipe; lia).
  apply (ready_room c s q HI Hcap (i_crng _ _ HI i q Hq)). pose proof (inv_tok c s q HI).
  pose proof (csum_ge_term (c_tok q) (cons s) (nc c) i (c_tok_nonneg q) Hi). unfold tok_ok in *. lia.
Qed.

Lemma carm_room c s i b q x k : RpqInv c s -> np c <= rcap c -> i < nc c -> cons s i = CArm b q x k -> rroom c s = true.
Proof.
  intros HI Hcap Hi E. apply (tok_room c s i q HI Hcap Hi). rewrite E. cbn [c_tok]. rewrite Nat.eqb_refl. reflexivity.
Qed.

(* a consumer that holds a pipe's token finds an item in its channel *)
Lemma no_stale c s i b q : RpqInv c s -> i < nc c -> cons s i = CRecv b q -> chan s q <> [].
Proof.
  intros HI Hi E Hnil. pose proof (i_q _ _ HI q) as Hq. pose proof (inv_tok c s q HI).
  pose proof (csum_mono_term (c_tns q) (c_tok q) (cons s) (nc c) i (c_tns_le_tok q) Hi) as Hle.
  rewrite E in Hle. cbn [c_tok c_tns] in Hle. rewrite Nat.eqb_refl in Hle. cbn [b2z] in Hle.
  rewrite Hnil in Hq. cbn [length] in Hq. pose proof (p_unc_range (prod s q)).
  pose proof (csum_nonneg (c_tns q) (cons s) (nc c) (c_tns_nonneg q)). unfold tok_ok in *. lia.
Qed.

Ltac simp_st :=
  cbn [chan queued reserved reg ready prod pprog cons cprog pushed taken out
       set_chan set_queued set_reserved set_reg set_ready set_prod set_pprog set_cons set_cprog
       set_pushed set_taken set_out write add_res add_q arm pto cto pdone cdone].

(* What a thread does to the shared state in one step, apart from moving its program counter: it appends w to
   the channel and the log of ONE pipe q, or takes l from the front of that channel, leaves rd' as the ready
   list and adds dq and dr to q's counters.  pf and cf are the program counters afterwards.  Every step of
   the model is one of the elementary actions below followed by pto / pdone or cto / cdone. *)
Record move (s : st) (q : nat) (w l : list N) (rd' : list nat) (dq dr : Z) (pf : nat -> ppc) (cf : nat -> cpc)
            (s' : st) : Prop := {
  mv_prod : prod s' = pf;
  mv_cons : cons s' = cf;
  mv_other : forall p, p <> q -> chan s' p = chan s p /\ queued s' p = queued s p /\ reserved s' p = reserved s p /\
                                 pushed s' p = pushed s p /\ taken_of p s' = taken_of p s;
  mv_chan : l ++ chan s' q = chan s q ++ w;
  mv_pushed : pushed s' q = pushed s q ++ w;
  mv_taken : taken_of q s' = taken_of q s ++ l;
  mv_ready : ready s' = rd';
  mv_queued : queued s' q = (queued s q + dq)%Z;
  mv_reserved : reserved s' q = (reserved s q + dr)%Z
}.
Arguments mv_cons {s q w l rd' dq dr pf cf s'} _.
Arguments mv_ready {s q w l rd' dq dr pf cf s'} _.

Ltac mv_action :=
  constructor; unfold taken_of; simp_st; rewrite ?upd_eq, ?app_nil_r, ?Z.add_0_r; try reflexivity;
  intros p Hp; rewrite ?upd_neq by exact Hp; repeat split; reflexivity.

Lemma mv_id s q : move s q [] [] (ready s) 0 0 (prod s) (cons s) s.
Proof. mv_action. Qed.
Lemma mv_write s q x : move s q [x] [] (ready s) 0 0 (prod s) (cons s) (write s q x).
Proof. mv_action. Qed.
Lemma mv_addq s q d : move s q [] [] (ready s) d 0 (prod s) (cons s) (add_q s q d).
Proof. mv_action. Qed.
Lemma mv_res s q d : move s q [] [] (ready s) 0 d (prod s) (cons s) (add_res s q d).
Proof. mv_action. Qed.
Lemma mv_arm s q : move s q [] [] (ready s ++ [q]) 0 0 (prod s) (cons s) (arm s q).
Proof. mv_action. Qed.
Lemma mv_pop s q rd : move s q [] [] rd 0 0 (prod s) (cons s) (set_ready s rd).
Proof. mv_action. Qed.
Lemma mv_take s q x l : chan s q = x :: l ->
  move s q [] [x] (ready s) 0 0 (prod s) (cons s) (set_taken (set_chan s (upd (chan s) q l)) (taken s ++ [(q, x)])).
Proof.
  intros Ec. constructor; simp_st; rewrite ?upd_eq, ?app_nil_r, ?Z.add_0_r; try reflexivity; [|symmetry; exact Ec|].
  - intros p Hp. rewrite upd_neq, (taken_of_snoc p s _ (q, x)) by (exact Hp || reflexivity). cbn [fst].
    rewrite (proj2 (Nat.eqb_neq q p)), app_nil_r by auto. repeat split; reflexivity.
  - rewrite (taken_of_snoc q s _ (q, x)) by reflexivity. cbn [fst snd]. rewrite Nat.eqb_refl. reflexivity.
Qed.

(* a step that starts an operation drops it from the thread's program *)
Lemma mv_pprog s q v : move s q [] [] (ready s) 0 0 (prod s) (cons s) (set_pprog s v).
Proof. mv_action. Qed.
Lemma mv_cprog s q v : move s q [] [] (ready s) 0 0 (prod s) (cons s) (set_cprog s v).
Proof. mv_action. Qed.
Lemma mv_cprog_pop s q v rd : move s q [] [] rd 0 0 (prod s) (cons s) (set_ready (set_cprog s v) rd).
Proof. mv_action. Qed.

(* moving the thread's program counter afterwards touches none of this *)
Section Finish.
  Context (s : st) (q : nat) (w l : list N) (rd' : list nat) (dq dr : Z) (pf : nat -> ppc) (cf : nat -> cpc) (s1 : st)
          (M : move s q w l rd' dq dr pf cf s1).
  Ltac mv_finish M := destruct M as [<- <- ? ? ? ? ? ? ?]; constructor; try assumption; reflexivity.
  Lemma mv_pto p pc' : move s q w l rd' dq dr (upd pf p pc') cf (pto s1 p pc').
  Proof. mv_finish M. Qed.
  Lemma mv_pdone p res : move s q w l rd' dq dr (upd pf p PIdle) cf (pdone s1 p res).
  Proof. mv_finish M. Qed.
  Lemma mv_cto i pc' : move s q w l rd' dq dr pf (upd cf i pc') (cto s1 i pc').
  Proof. mv_finish M. Qed.
  Lemma mv_cdone i res : move s q w l rd' dq dr pf (upd cf i CIdle) (cdone s1 i res).
  Proof. mv_finish M. Qed.
End Finish.

(* s' is a stack of the functions above applied to s *)
Ltac mv_frame :=
  first [simple eapply mv_pto | simple eapply mv_pdone | simple eapply mv_cto | simple eapply mv_cdone];
  first [ simple apply mv_write | simple apply mv_addq | simple apply mv_res | simple apply mv_arm
        | simple apply mv_take; eassumption | simple apply mv_pop | simple apply mv_id
        | simple apply mv_pprog | simple apply mv_cprog | simple apply mv_cprog_pop ].

(* the ready list keeps its entries, loses its head q, or gains q at the back; n is the change in the
   number of entries q has *)
Definition ready_law (rd rd' : list nat) (q : nat) (n : Z) : Prop :=
  n = 0%Z /\ rd' = rd \/ n = (-1)%Z /\ rd = q :: rd' \/ n = 1%Z /\ rd' = rd ++ [q].

Ltac ready_law_case :=
  first [left; split; reflexivity | right; left; split; [reflexivity | eassumption] | right; right; split; reflexivity].

Lemma ready_law_cnt rd rd' q n : ready_law rd rd' q n ->
  cnt q rd' = (cnt q rd + n)%Z /\ forall p, p <> q -> cnt p rd' = cnt p rd.
Proof.
  intros [(-> & ->)|[(-> & ->)|(-> & ->)]]; split; try intros p Hp; rewrite ?cnt_app; cbn [cnt];
    rewrite ?Nat.eqb_refl, ?(proj2 (Nat.eqb_neq q p)) by auto; cbn [b2z]; lia.
Qed.
Lemma ready_law_in rd rd' q n q0 : ready_law rd rd' q n -> In q0 rd' -> In q0 rd \/ q0 = q /\ n = 1%Z.
Proof.
  intros [(_ & ->)|[(_ & ->)|(-> & ->)]] Hin; [left; exact Hin|left; right; exact Hin|].
  apply in_app_or in Hin as [Hin|[<-|[]]]; auto.
Qed.
Lemma ready_law_length rd rd' q n : ready_law rd rd' q n -> length rd' <= S (length rd).
Proof. intros [(_ & ->)|[(_ & ->)|(_ & ->)]]; rewrite ?app_length; cbn [length]; lia. Qed.

(* The laws that tie w, rd', dq, dr to the producer's program counters pc before and pc' after: each says
   that one of pipe p's clauses of the invariant survives (the last one: if the ready list has room
   whenever p owes it an entry, which the invariant provides). *)
Record plaw (c : cfg) (s : st) (p : nat) (pc : ppc) (w : list N) (rd' : list nat) (n dq dr : Z) (pc' : ppc) : Prop := {
  pl_ready : ready_law (ready s) rd' p n;
  pl_cap : w = [] \/ length (chan s p) + length w <= cap c p;
  pl_q : (dq + p_unc pc' = p_unc pc + Z.of_nat (length w))%Z;
  pl_res : (dr + p_infl pc = dq + p_infl pc')%Z;
  pl_tok : tok_delta (queued s p) (p_arm pc) dq (n + p_arm pc' - p_arm pc);
  pl_nopark : (p_arm pc = 1%Z -> rroom c s = true) -> pc' <> SArm true
}.
Arguments pl_ready {c s p pc w rd' n dq dr pc'} _.

Definition pmoves (c : cfg) (s : st) (p : nat) (s' : st) : Prop :=
  exists w rd' n dq dr pc', move s p w [] rd' dq dr (upd (prod s) p pc') (cons s) s' /\ plaw c s p (prod s p) w rd' n dq dr pc'.

(* prod s p has been destructed *)
Ltac pmove_case :=
  eexists _, _, _, _, _, _; split;
  [ mv_frame
  | split;
    [ ready_law_case
    | first [left; reflexivity | right; cbn [length]; lia]
    | cbn [length p_unc]; first [reflexivity | lia]
    | cbn [p_infl length]; first [reflexivity | lia]
    | solve [constructor; first [assumption | reflexivity]]
    | intros Hroom; first [discriminate | specialize (Hroom eq_refl); congruence] ] ].

Lemma pstep_move c s p s' : pstep c s p = Some s' -> pmoves c s p s'.
Proof.
  unfold pmoves, pstep, pstart. destruct (prod s p) eqn:E; intros H; try injection H as <-.
  - (* PIdle *)
    destruct (pprog s p) as [|o r]; [discriminate|]. injection H as <-.
    destruct o as [x|x|xs]; destruct (alive c s p); try destruct xs; pmove_case.
  - (* SRes *) pmove_case.
  - (* SWrite *) destruct (room c s p) eqn:R; [apply Nat.ltb_lt in R|]; pmove_case.
  - (* SBlock *)
    destruct (room c s p) eqn:R; [apply Nat.ltb_lt in R|destruct parked; [discriminate|]]; injection H as <-;
      pmove_case.
  - (* SCount *) destruct (Z.eqb_spec (queued s p) 0); pmove_case.
  - (* SArm *) destruct (rroom c s) eqn:R; [|destruct parked; [discriminate|]]; injection H as <-; pmove_case.
  - (* TRes *) pmove_case.
  - (* TWrite *) destruct (room c s p) eqn:R; [apply Nat.ltb_lt in R|]; pmove_case.
  - (* TCount *) destruct (Z.eqb_spec (queued s p) 0); pmove_case.
  - (* TArm *) destruct (rroom c s); [|discriminate]. injection H as <-. pmove_case.
  - (* BRes *) destruct xs as [|x r]; injection H as <-; pmove_case.
  - (* BWrite *) destruct (room c s p) eqn:R; [apply Nat.ltb_lt in R|]; destruct hz; pmove_case.
  - (* BCount *) destruct (Z.eqb_spec (queued s p) 0); destruct hz; destruct r; cbn [orb]; pmove_case.
  - (* BRoll *) destruct hz; pmove_case.
  - (* BArm *) destruct (rroom c s); [|discriminate]. injection H as <-. pmove_case.
Qed.

Lemma pcancel_some s p s' : pcancel s p = Some s' ->
  (exists x, prod s p = SBlock x true /\ s' = pdone (add_res s p (-1)) p [1; 2]%N) \/
  (prod s p = SArm true /\ s' = pdone s p [1; 2]%N).
Proof.
  unfold pcancel. intros H. destruct (prod s p); try discriminate; destruct parked; try discriminate; injection H as <-; eauto.
Qed.

Lemma ccancel_some s i s' : ccancel s i = Some s' ->
  s' = cdone s i [4; 2]%N /\ (cons s i = CWait \/ exists q x, cons s i = CArm true q x true).
Proof.
  unfold ccancel. intros H. destruct (cons s i); try discriminate; [|destruct b, parked; try discriminate];
    injection H as <-; eauto.
Qed.

Lemma pcancel_move c s p s' : prod s p <> SArm true -> pcancel s p = Some s' -> pmoves c s p s'.
Proof.
  intros Hn H. unfold pmoves. destruct (pcancel_some s p s' H) as [(x & E & ->)|(E & _)]; [|contradiction].
  rewrite E. pmove_case.
Qed.

Lemma pmove_inv c s p s' : np c <= rcap c -> p < np c -> RpqInv c s -> pmoves c s p s' -> RpqInv c s'.
Proof.
  intros Hcap Hp HI (w & rd' & n & dq & dr & pc' & [Mprod Mcons Mother Mchan Mpushed Mtaken Mready Mqd Mrd] &
                      [Lr Lcap Lq Lres Ltok Lnopark]).
  destruct (ready_law_cnt _ _ _ _ Lr) as (Hcnt & Hcnt'). cbn [app] in Mchan.
  pose proof (inv_tok c s p HI) as (Hnn & Ht). specialize (Lnopark (parm_room c s p HI Hcap Hp)).
  constructor; unfold tokens; rewrite ?Mcons, ?Mprod, ?Mready.
  (* the five clauses about a pipe's channel and counters: on a pipe other than p nothing changes (mv_other) *)
  1-5: intros q; destruct (Nat.eq_dec q p) as [->|Hq];
    [ rewrite ?Mqd, ?Mrd, ?upd_eq
    | rewrite ?(Hcnt' q Hq), ?upd_neq by exact Hq; destruct (Mother q Hq) as (E1 & E2 & E3 & E4 & E5);
      rewrite ?E1, ?E2, ?E3, ?E4, ?E5; apply HI ].
  (* lia on cleared contexts, here and below: its preprocessing walks over every hypothesis *)
  - (* i_q *) pose proof (i_q _ _ HI p) as Iq. rewrite Mchan, app_length. clear - Iq Lq. lia.
  - (* i_tok *)
    apply (tok_delta_ok _ _ _ _ _ Ltok) in Ht; [|clear - Hnn; lia]. rewrite Hcnt. clear - Ht. unfold tok_ok in *. lia.
  - (* i_res *) pose proof (i_res _ _ HI p) as Ir. clear - Ir Lres. lia.
  - (* i_cap *)
    pose proof (i_cap _ _ HI p) as Ic. rewrite Mchan, app_length. clear - Ic Lcap.
    destruct Lcap as [-> | ?]; cbn [length]; lia.
  - (* i_fifo *) rewrite Mpushed, Mchan, Mtaken, app_nil_r, (i_fifo _ _ HI p), app_assoc. reflexivity.
  - (* i_rng *)
    intros q Hin. destruct (ready_law_in _ _ _ _ _ Lr Hin) as [Hin'|(-> & _)]; [exact (i_rng _ _ HI q Hin')|exact Hp].
  - (* i_crng *) exact (i_crng _ _ HI).
  - (* i_nopark_p *)
    intros q. destruct (Nat.eq_dec q p) as [->|Hq]; [rewrite upd_eq; exact Lnopark|].
    rewrite upd_neq by exact Hq. exact (i_nopark_p _ _ HI q).
  - (* i_nopark_c *) exact (i_nopark_c _ _ HI).
Qed.

(* The laws that tie q, l, rd', dq, dr to the consumer's program counters pc before and pc' after.  The token
   law holds if the consumer neither finds q's channel empty nor the ready list full, which the invariant
   excludes. *)
Record claw (c : cfg) (s : st) (pc : cpc) (q : nat) (l : list N) (rd' : list nat) (n dq dr : Z) (pc' : cpc) : Prop := {
  cl_pc : c_pipe pc = None \/ c_pipe pc = Some q;
  cl_pc' : c_pipe pc' = None \/ c_pipe pc' = Some q /\ (c_pipe pc = Some q \/ n = (-1)%Z);
  cl_ready : ready_law (ready s) rd' q n;
  cl_arm : n = 1%Z -> c_pipe pc = Some q;
  cl_park : pc' = CWait -> ready s = [] /\ rd' = [];
  cl_q : (dq + c_tns q pc + Z.of_nat (length l) = c_tns q pc')%Z;
  cl_res : (dr + c_c3 q pc = dq + c_c3 q pc')%Z;
  cl_tok : (forall b r, pc = CRecv b r -> chan s r <> []) -> (forall b r x k, pc = CArm b r x k -> rroom c s = true) ->
           tok_delta (queued s q) (c_tok q pc) dq (n + c_tok q pc' - c_tok q pc);
  cl_nopark : (forall b r x k, pc = CArm b r x k -> rroom c s = true) -> forall b r x, pc' <> CArm b r x true
}.
Arguments cl_ready {c s pc q l rd' n dq dr pc'} _.
Arguments cl_park {c s pc q l rd' n dq dr pc'} _ _.

Definition cmoves (c : cfg) (s : st) (i : nat) (s' : st) : Prop :=
  exists q l rd' n dq dr pc', move s q [] l rd' dq dr (prod s) (upd (cons s) i pc') s' /\ claw c s (cons s i) q l rd' n dq dr pc'.

(* cons s i has been destructed, and so has ready s (Er), the channel (Ec) or 1 <? prev (Hp) where the step
   looks at it *)
Ltac cmove_case :=
  eexists _, _, _, _, _, _, _; split;
  [ mv_frame
  | split; cbn [c_pipe c_tns c_c3 c_tok length]; rewrite ?Nat.eqb_refl;
    try match goal with Hp : Z.ltb _ _ = _ |- _ => rewrite ?Hp end; cbn [b2z andb];
    [ first [left; reflexivity | right; reflexivity]
    | first [left; reflexivity | right; split; [reflexivity | first [left; reflexivity | right; reflexivity]]]
    | ready_law_case
    | intros H0; first [discriminate H0 | reflexivity]
    | intros H0; first [discriminate H0 | split; assumption]
    | reflexivity
    | reflexivity
    | intros Hne Hroom;
      first [ exfalso; eapply Hne; [reflexivity|eassumption] | specialize (Hroom _ _ _ _ eq_refl); congruence
            | solve [constructor; reflexivity] ]
    | intros Hroom b0 q0 x0; first [discriminate | specialize (Hroom _ _ _ _ eq_refl); congruence] ] ].

Lemma cstep_move c s i s' : cstep c s i = Some s' -> cmoves c s i s'.
Proof.
  unfold cmoves, cstep, cstart, crecv_first. destruct (cons s i) eqn:E; intros H; try injection H as <-.
  - (* CIdle *)
    destruct (cprog s i) as [|o r]; [discriminate|]. injection H as <-. simp_st.
    destruct o; destruct (ready s) as [|q rd] eqn:Er; cmove_case.
  - (* CWait *) destruct (ready s) as [|q rd] eqn:Er; [discriminate|]. injection H as <-. cmove_case.
  - (* CStale *) destruct (ready s) as [|q rd] eqn:Er; cmove_case.
  - (* CRecv *) destruct (chan s q) as [|x l] eqn:Ec; injection H as <-; [destruct b|]; cmove_case.
  - (* CDecQ *) cmove_case.
  - (* CDecR *) destruct (1 <? prev)%Z eqn:Hp; cmove_case.
  - (* CArm *)
    destruct (rroom c s) eqn:R; [|destruct b; [destruct parked; [discriminate|]|]]; injection H as <-; cmove_case.
  (* a step that only looks at the empty ready list acts on no pipe: any q will do *)
  Unshelve. all: exact 0.
Qed.

Lemma ccancel_move c s i s' : (forall b q x, cons s i <> CArm b q x true) -> ccancel s i = Some s' -> cmoves c s i s'.
Proof.
  intros Hn H. unfold cmoves. destruct (ccancel_some s i s' H) as (-> & [E|(q & x & E)]); [rewrite E; cmove_case|destruct (Hn _ _ _ E)].
  Unshelve. exact 0.
Qed.

Lemma cmove_inv c s i s' : np c <= rcap c -> i < nc c -> RpqInv c s -> cmoves c s i s' -> RpqInv c s'.
Proof.
  intros Hcap Hi HI (q & l & rd' & n & dq & dr & pc' & [Mprod Mcons Mother Mchan Mpushed Mtaken Mready Mqd Mrd] &
                     [Lpc Lpc' Lready Larm _ Lq Lres Ltok Lnopark]).
  pose proof (fun b q x k => carm_room c s i b q x k HI Hcap Hi) as Hroom.
  specialize (Lnopark Hroom). specialize (Ltok (fun b q => no_stale c s i b q HI Hi) Hroom).
  assert (S : forall f, csum f (cons s') (nc c) = (csum f (cons s) (nc c) - f (cons s i) + f pc')%Z)
    by (intros f; rewrite Mcons; apply csum_upd, Hi).
  (* on the other pipes the consumer holds nothing, before or after, and nothing changes *)
  assert (Z0 : forall pc p, c_pipe pc = None \/ c_pipe pc = Some q -> p <> q -> c_holds p pc = false).
  { intros pc p Hpc Hp. unfold c_holds. destruct Hpc as [-> | ->]; [reflexivity|apply Nat.eqb_neq; auto]. }
  assert (S0 : forall p f, p <> q -> (forall pc, c_holds p pc = false -> f pc = 0%Z) ->
                            csum f (cons s') (nc c) = csum f (cons s) (nc c)).
  { assert (Lpc'' : c_pipe pc' = None \/ c_pipe pc' = Some q) by (destruct Lpc' as [E|(E & _)]; auto).
    intros p f Hp Hf. rewrite S, (Hf _ (Z0 _ p Lpc Hp)), (Hf _ (Z0 pc' p Lpc'' Hp)). clear. lia. }
  destruct (ready_law_cnt _ _ _ _ Lready) as (Hcnt & Hcnt'). rewrite app_nil_r in Mchan.
  assert (Hlen : length (chan s q) = length l + length (chan s' q)) by (rewrite <- Mchan; apply app_length).
  constructor; unfold tokens; rewrite ?Mprod, ?Mready.
  (* the five clauses about a pipe's channel and counters: on a pipe other than q nothing changes (mv_other, S0) *)
  1-5: intros p; destruct (Nat.eq_dec p q) as [->|Hp];
    [ rewrite ?Mqd, ?Mrd, ?S
    | destruct (Mother p Hp) as (E1 & E2 & E3 & E4 & E5);
      rewrite ?E1, ?E2, ?E3, ?E4, ?E5, ?(Hcnt' p Hp), ?(S0 p _ Hp) by (intros pc; apply c_not_holds); apply HI ].
  - (* i_q *) pose proof (i_q _ _ HI q) as Iq. clear - Iq Hlen Lq. lia.
  - (* i_tok *)
    rewrite Hcnt. destruct (inv_tok c s q HI) as (Hnn & Ht).
    pose proof (csum_ge_term (c_tok q) (cons s) (nc c) i (c_tok_nonneg q) Hi) as Hge.
    apply (tok_delta_ok _ _ _ _ _ Ltok) in Ht; [|clear - Hnn Hge; lia]. clear - Ht. unfold tok_ok in *. lia.
  - (* i_res *) pose proof (i_res _ _ HI q) as Ir. clear - Ir Lres. lia.
  - (* i_cap *) pose proof (i_cap _ _ HI q) as Ic. clear - Ic Hlen. lia.
  - (* i_fifo *) rewrite Mpushed, app_nil_r, Mtaken, <- app_assoc, Mchan. apply HI.
  - (* i_rng: an entry that is new was armed by this consumer, which held the pipe *)
    intros q0 Hin. destruct (ready_law_in _ _ _ _ _ Lready Hin) as [Hin'|(-> & E)].
    + exact (i_rng _ _ HI q0 Hin').
    + exact (i_crng _ _ HI i q (Larm E)).
  - (* i_crng: the pipe this consumer holds now it held before, or has just popped from the ready list *)
    intros j q0. rewrite Mcons. destruct (Nat.eq_dec j i) as [->|Hj].
    2:{ rewrite upd_neq by exact Hj. exact (i_crng _ _ HI j q0). }
    rewrite upd_eq. intros Hq.
    destruct Lpc' as [E|(E & [E1| ->])]; rewrite E in Hq; [discriminate| |]; injection Hq as <-.
    + exact (i_crng _ _ HI i q E1).
    + destruct Lready as [(? & _)|[(_ & E1)|(? & _)]]; try discriminate.
      apply (i_rng _ _ HI). rewrite E1. left. reflexivity.
  - (* i_nopark_p *) exact (i_nopark_p _ _ HI).
  - (* i_nopark_c *)
    intros j. rewrite Mcons. destruct (Nat.eq_dec j i) as [->|Hj]; [rewrite upd_eq; exact Lnopark|].
    rewrite upd_neq by exact Hj. apply (i_nopark_c _ _ HI).
Qed.

Lemma inv_step c s e s' : np c <= rcap c -> RpqInv c s -> step c s e = Some s' -> RpqInv c s'.
Proof.
  intros Hcap HI Hs. destruct e as [p|i|p|i|p]; cbn [step] in Hs.
  - destruct (Nat.ltb_spec p (np c)) as [Hp|]; [|discriminate].
    exact (pmove_inv c s p s' Hcap Hp HI (pstep_move c s p s' Hs)).
  - destruct (Nat.ltb_spec i (nc c)) as [Hi|]; [|discriminate].
    exact (cmove_inv c s i s' Hcap Hi HI (cstep_move c s i s' Hs)).
  - destruct (Nat.ltb_spec p (np c)) as [Hp|]; [|discriminate].
    exact (pmove_inv c s p s' Hcap Hp HI (pcancel_move c s p s' (i_nopark_p _ _ HI p) Hs)).
  - destruct (Nat.ltb_spec i (nc c)) as [Hi|]; [|discriminate].
    exact (cmove_inv c s i s' Hcap Hi HI (ccancel_move c s i s' (i_nopark_c _ _ HI i) Hs)).
  - injection Hs as <-. destruct HI. constructor; assumption.
Qed.

Lemma inv_run c es : forall s, np c <= rcap c -> RpqInv c s -> RpqInv c (run c es s).
Proof.
  induction es as [|e es IH]; intros s Hcap HI; [exact HI|]. cbn [run fold_left].
  apply IH; [exact Hcap|]. unfold step'. destruct (step c s e) eqn:E; [eapply inv_step; eauto|exact HI].
Qed.

Theorem rpq_inv_reachable c pp cp es : np c <= rcap c -> RpqInv c (run c es (init pp cp)).
Proof. intros Hcap. apply inv_run; [exact Hcap|apply inv_init]. Qed.

Definition reach (c : cfg) (s : st) : Prop := exists pp cp es, s = run c es (init pp cp).

Lemma reach_inv c s : np c <= rcap c -> reach c s -> RpqInv c s.
Proof. intros Hcap (pp & cp & es & ->). apply rpq_inv_reachable. exact Hcap. Qed.

Lemma reach_step c s e : reach c s -> reach c (step' c s e).
Proof.
  intros (pp & cp & es & ->). exists pp, cp, (es ++ [e]). unfold run. rewrite fold_left_app. reflexivity.
Qed.

Theorem rpq_no_stale_pop c s i b q : np c <= rcap c -> reach c s -> i < nc c ->
  cons s i = CRecv b q -> exists x l, chan s q = x :: l.
Proof.
  intros Hcap Hr Hi E. pose proof (no_stale c s i b q (reach_inv c s Hcap Hr) Hi E) as H.
  destruct (chan s q) as [|x l]; [congruence|eauto].
Qed.

Theorem rpq_no_underflow c s : np c <= rcap c -> reach c s ->
  (forall p, (0 <= queued s p <= reserved s p)%Z) /\
  (forall i b q x, i < nc c -> cons s i = CDecQ b q x -> (1 <= queued s q)%Z) /\
  (forall i b q x prev, i < nc c -> cons s i = CDecR b q x prev -> (1 <= reserved s q)%Z).
Proof.
  intros Hcap Hr. pose proof (reach_inv c s Hcap Hr) as HI.
  assert (H0 : forall p, (0 <= queued s p <= reserved s p)%Z).
  { intros p. pose proof (i_res _ _ HI p). pose proof (p_infl_nonneg (prod s p)).
    pose proof (csum_nonneg (c_c3 p) (cons s) (nc c) (c_c3_nonneg p)).
    pose proof (inv_tok c s p HI). unfold tok_ok in *. lia. }
  split; [exact H0|split].
  - intros i b q x Hi E.
    pose proof (csum_ge_term (c_tok q) (cons s) (nc c) i (c_tok_nonneg q) Hi) as H. rewrite E in H.
    cbn [c_tok] in H. rewrite Nat.eqb_refl in H. cbn [b2z] in H.
    pose proof (inv_tok c s q HI). unfold tok_ok in *. lia.
  - intros i b q x prev Hi E.
    pose proof (csum_ge_term (c_c3 q) (cons s) (nc c) i (c_c3_nonneg q) Hi) as H. rewrite E in H.
    cbn [c_c3] in H. rewrite Nat.eqb_refl in H. cbn [b2z] in H.
    pose proof (i_res _ _ HI q). pose proof (p_infl_nonneg (prod s q)). specialize (H0 q). lia.
Qed.

(* per pipe: what the consumers took, in the order they took it, followed by what is still in
   the channel, is exactly what was written: nothing lost, nothing duplicated, order kept *)
Theorem rpq_exactly_once_in_order c s p : np c <= rcap c -> reach c s ->
  pushed s p = taken_of p s ++ chan s p /\ prefix (taken_of p s) (pushed s p) /\
  (NoDup (pushed s p) -> NoDup (taken_of p s)).
Proof.
  intros Hcap Hr. pose proof (i_fifo _ _ (reach_inv c s Hcap Hr) p) as H. split; [exact H|split].
  - rewrite H. apply prefix_app.
  - rewrite H. apply nodup_app_l.
Qed.

(* an item in a channel always has a thread, or a ready entry, that answers for it *)
Theorem rpq_item_has_owner c s p : np c <= rcap c -> reach c s -> chan s p <> [] ->
  In p (ready s) \/ p_arm (prod s p) = 1%Z \/ p_unc (prod s p) = 1%Z \/
  exists i, i < nc c /\ c_holds p (cons s i) = true.
Proof.
  intros Hcap Hr Hne. pose proof (reach_inv c s Hcap Hr) as HI.
  pose proof (i_q _ _ HI p) as Hq. destruct (inv_tok c s p HI) as (Hnn & Ht). unfold tok_ok in Ht.
  pose proof (p_unc_range (prod s p)). pose proof (p_arm_range (prod s p)).
  pose proof (csum_nonneg (c_tns p) (cons s) (nc c) (c_tns_nonneg p)).
  assert (1 <= Z.of_nat (length (chan s p)))%Z by (destruct (chan s p); [congruence|cbn [length]; lia]).
  destruct (Z.eq_dec (p_unc (prod s p)) 1) as [Hu|Hu]; [auto|].
  destruct (Z.ltb_spec 0 (cnt p (ready s))); [left; apply cnt_pos; assumption|].
  destruct (Z.eq_dec (p_arm (prod s p)) 1) as [Ha|Ha]; [auto|].
  right; right; right. destruct (csum_pos_exists (c_tok p) (cons s) (nc c)) as (i & Hi & Hf); [lia|].
  exists i. split; [exact Hi|apply c_tok_holds; exact Hf].
Qed.

(* a pipe nobody holds (producer idle, no ready entry, no consumer on it) is empty and its
   counters are zero: nothing can be stranded in it *)
Lemma pipe_drained c s p : RpqInv c s -> prod s p = PIdle -> ~ In p (ready s) ->
  (forall k, k < nc c -> c_holds p (cons s k) = false) ->
  chan s p = [] /\ queued s p = 0%Z /\ reserved s p = 0%Z.
Proof.
  intros HI Ep Hrd Hc.
  assert (Z0 : forall f, (forall pc, c_holds p pc = false -> f pc = 0%Z) -> csum f (cons s) (nc c) = 0%Z).
  { intros f Hf. apply csum_zero. intros k Hk. apply Hf, Hc, Hk. }
  pose proof (i_q _ _ HI p) as Hq. pose proof (i_res _ _ HI p) as Hre. destruct (inv_tok c s p HI) as (_ & Ht).
  rewrite <- cnt_pos in Hrd. pose proof (cnt_nonneg p (ready s)).
  rewrite Ep, Z0 in Hq, Hre, Ht by (intros pc; apply c_not_holds). cbn [p_unc p_infl p_arm] in *.
  unfold tok_ok in Ht. destruct (chan s p); [repeat split; lia|cbn [length] in Hq; lia].
Qed.

(* a consumer inside an operation (not parked on the ready list) can always take its next step *)
Lemma c_midop_enabled c s i : np c <= rcap c -> RpqInv c s -> i < nc c -> c_midop (cons s i) = true ->
  exists s', cstep c s i = Some s'.
Proof.
  intros Hcap HI Hi Hm. unfold cstep. destruct (cons s i) eqn:E; try discriminate; try (eexists; reflexivity).
  - destruct (chan s q); eexists; reflexivity.
  - rewrite (carm_room c s i b q x parked HI Hcap Hi E). eexists; reflexivity.
Qed.

Lemma c_wants_enabled c s i : np c <= rcap c -> RpqInv c s -> i < nc c -> c_wants s i = true -> ready s <> [] ->
  exists s', cstep c s i = Some s'.
Proof.
  intros Hcap HI Hi Hw Hrd. destruct (c_midop (cons s i)) eqn:Hm; [apply c_midop_enabled; assumption|].
  unfold cstep, c_wants in *. destruct (cons s i) eqn:E; try discriminate.
  - unfold cstart. destruct (cprog s i); [discriminate|eexists; reflexivity].
  - destruct (ready s); [congruence|eexists; reflexivity].
Qed.

Lemma step_runp c s p s' : p < np c -> pstep c s p = Some s' -> step c s (RunP p) = Some s'.
Proof. intros Hp H. cbn [step]. apply Nat.ltb_lt in Hp. rewrite Hp. exact H. Qed.
Lemma step_runc c s i s' : i < nc c -> cstep c s i = Some s' -> step c s (RunC i) = Some s'.
Proof. intros Hi H. cbn [step]. apply Nat.ltb_lt in Hi. rewrite Hi. exact H. Qed.

(* no lost wake-up (deadlock freedom): whenever an item sits in some channel and
   some consumer is receiving (parked in pop(), inside an operation, or with operations left),
   some thread has an enabled step: the item's owner, or the receiving consumer if the owner is a
   ready entry *)
Theorem rpq_no_lost_wakeup c s p : np c <= rcap c -> reach c s -> p < np c -> chan s p <> [] ->
  (exists i, i < nc c /\ c_wants s i = true) ->
  exists e s', (exists t, e = RunP t \/ e = RunC t) /\ step c s e = Some s'.
Proof.
  intros Hcap Hr Hp Hne (i & Hi & Hw). pose proof (reach_inv c s Hcap Hr) as HI.
  assert (G : (exists s', pstep c s p = Some s') \/ exists j s', j < nc c /\ cstep c s j = Some s').
  { destruct (rpq_item_has_owner c s p Hcap Hr Hne) as [Hin|[Ha|[Hu|(j & Hj & Hh)]]].
    - right. destruct (c_wants_enabled c s i Hcap HI Hi Hw) as (s' & Hs); [intros E; rewrite E in Hin; destruct Hin|eauto].
    - left. unfold pstep. pose proof (parm_room c s p HI Hcap Hp Ha) as Hr'.
      destruct (prod s p); cbn [p_arm] in Ha; try discriminate; try rewrite Hr'; try (eexists; reflexivity);
        destruct hz; try discriminate; eexists; reflexivity.
    - left. unfold pstep. destruct (prod s p); try discriminate; eexists; reflexivity.
    - right. destruct (c_midop_enabled c s j Hcap HI Hj) as (s' & Hs); [|eauto].
      unfold c_holds in Hh. destruct (cons s j); cbn [c_pipe] in Hh; try discriminate; reflexivity. }
  destruct G as [(s' & Hs)|(j & s' & Hj & Hs)].
  - exists (RunP p), s'. split; [eauto|exact (step_runp c s p s' Hp Hs)].
  - exists (RunC j), s'. split; [eauto|exact (step_runc c s j s' Hj Hs)].
Qed.

Theorem rpq_taken_is_returned c s i : np c <= rcap c -> reach c s -> i < nc c -> c_midop (cons s i) = true ->
  ccancel s i = None /\ exists s', step c s (RunC i) = Some s'.
Proof.
  intros Hcap Hr Hi Hm. pose proof (reach_inv c s Hcap Hr) as HI. split.
  - unfold ccancel. destruct (cons s i) eqn:E; try reflexivity; try discriminate.
    destruct b, parked; try reflexivity. destruct (i_nopark_c _ _ HI i _ _ _ E).
  - destruct (c_midop_enabled c s i Hcap HI Hi Hm) as (s' & Hs). exists s'. exact (step_runc c s i s' Hi Hs).
Qed.

(* cancellation at any await point: the invariant holds afterwards, no item is lost or
   duplicated (channels, counters of committed items, ready list, logs untouched), and the
   reservation of the cancelled send is returned *)
Theorem rpq_cancel_safe c s e s' : np c <= rcap c -> reach c s ->
  (exists t, e = CancelP t \/ e = CancelC t) -> step c s e = Some s' ->
  RpqInv c s' /\ ready s' = ready s /\ taken s' = taken s /\
  (forall q, chan s' q = chan s q /\ queued s' q = queued s q /\ pushed s' q = pushed s q) /\
  match e with
  | CancelP p => (exists x, prod s p = SBlock x true) /\ prod s' p = PIdle /\
                 reserved s' p = (reserved s p - 1)%Z /\ (forall q, q <> p -> reserved s' q = reserved s q) /\
                 reserved s' p = (queued s' p + csum (c_c3 p) (cons s') (nc c))%Z
  | CancelC i => cons s i = CWait /\ cons s' i = CIdle /\ forall q, reserved s' q = reserved s q
  | _ => True
  end.
Proof.
  intros Hcap Hr (t & He) Hs. pose proof (reach_inv c s Hcap Hr) as HI.
  split; [eapply inv_step; eauto|].
  destruct He as [-> | ->]; cbn [step] in Hs.
  - destruct (t <? np c); [|discriminate].
    destruct (pcancel_some s t s' Hs) as [(x & E & ->)|(E & _)]; [|destruct (i_nopark_p _ _ HI t E)].
    pose proof (i_res _ _ HI t) as H1. rewrite E in H1. cbn [p_infl] in H1.
    simp_st. rewrite !upd_eq. repeat split; eauto; try lia. intros q Hq. apply upd_neq, Hq.
  - destruct (t <? nc c); [|discriminate].
    destruct (ccancel_some s t s' Hs) as (-> & [E|(q & x & E)]); [|destruct (i_nopark_c _ _ HI t _ _ _ E)].
    simp_st. repeat split; eauto. apply upd_eq.
Qed.

Lemma run_runc c s i s' es : i < nc c -> cstep c s i = Some s' -> run c (RunC i :: es) s = run c es s'.
Proof. intros Hi H. cbn [run fold_left]. unfold step'. rewrite (step_runc c s i s' Hi H). reflexivity. Qed.

Theorem rpq_pop_completes c s i q rd : np c <= rcap c -> reach c s -> i < nc c ->
  cons s i = CWait -> ready s = q :: rd ->
  exists k x, k <= 5 /\
    let s' := run c (repeat (RunC i) k) s in
    cons s' i = CIdle /\ hd [] (out s') = [1; N.of_nat i; 4; 0; N.of_nat q; x]%N /\
    taken s' = taken s ++ [(q, x)] /\ cprog s' i = cprog s i.
Proof.
  intros Hcap Hr Hi E Er. pose proof (reach_inv c s Hcap Hr) as I.
  assert (S1 : cstep c s i = Some (cto (set_ready s rd) i (CRecv true q))) by (unfold cstep; rewrite E, Er; reflexivity).
  (* once it has taken the entry it holds q's token: q's channel is not empty and the ready list has
     room, and nothing the consumer does before it looks at them changes that *)
  set (s1 := cto (set_ready s rd) i (CRecv true q)) in S1.
  pose proof (inv_step c s _ s1 Hcap I (step_runc c s i s1 Hi S1)) as I1.
  assert (E1 : cons s1 i = CRecv true q) by apply upd_eq.
  assert (Hroom : (length rd <? rcap c) = true).
  { apply (tok_room c s1 i q I1 Hcap Hi). rewrite E1. cbn [c_tok]. rewrite Nat.eqb_refl. reflexivity. }
  destruct (chan s q) as [|x l] eqn:Ec; [destruct (no_stale c s1 i true q I1 Hi E1 Ec)|].
  exists (4 + if (1 <? queued s q)%Z then 1 else 0), x. split; [destruct (1 <? queued s q)%Z; cbn [Nat.add]; lia|].
  cbn [Nat.add repeat].
  (* CWait -> CRecv: the entry is taken *)
  rewrite (run_runc c s i s1 _ Hi S1).
  (* CRecv -> CDecQ: x is taken from the channel *)
  erewrite (run_runc c s1 i _ _ Hi) by (unfold cstep; rewrite E1; unfold s1; simp_st; rewrite Ec; reflexivity).
  (* CDecQ -> CDecR: queued goes down *)
  erewrite (run_runc c _ i _ _ Hi) by (unfold cstep; simp_st; rewrite upd_eq; reflexivity).
  (* CDecR -> CArm if items are left, CIdle if not: reserved goes down *)
  erewrite (run_runc c _ i _ _ Hi) by (unfold cstep; simp_st; rewrite upd_eq; reflexivity).
  destruct (1 <? queued s q)%Z; cbn [repeat].
  - (* CArm -> CIdle: the entry goes back to the ready list, which has room *)
    erewrite (run_runc c _ i _ _ Hi) by (unfold cstep, rroom; simp_st; rewrite upd_eq, Hroom; reflexivity).
    cbn [run fold_left]. simp_st. rewrite upd_eq. repeat split; reflexivity.
  - cbn [run fold_left]. simp_st. rewrite upd_eq. repeat split; reflexivity.
Qed.
