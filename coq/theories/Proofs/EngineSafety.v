(* Safety of the engine under every input history: what each kind of input can emit (never a panic), and a bound
   on the bytes the accumulator holds between reads when MAXMSGSIZE is set. *)
From RZ Require Import Base.Prelude Base.Stepper Model.Codec Proofs.CodecProofs Model.Engine
  Proofs.EngineProofs.
Local Open Scope N_scope.

Lemma e_run_cons cfg g i is :
  e_run cfg g (i :: is) =
  (fst (e_run cfg (fst (e_input cfg g i)) is), snd (e_input cfg g i) :: snd (e_run cfg (fst (e_input cfg g i)) is)).
Proof. cbn [e_run]. destruct (e_input cfg g i) as [g1 o]. cbn [fst snd]. destruct (e_run cfg g1 is). reflexivity. Qed.

(* the shape of what a tick returns; EngineHeartbeat.tick_cases, which builds on this file, adds when each arises *)
Lemma e_tick_cases cfg g now :
  e_tick cfg g now = (g, []) \/
  e_tick cfg g now = ({| g_st := closed (g_st g); g_acc := g_acc g; g_hb := g_hb g |}, [OErr ETimeout]) \/
  exists h b, e_tick cfg g now = ({| g_st := g_st g; g_acc := g_acc g; g_hb := h |}, [OSend b false]).
Proof.
  unfold e_tick. destruct (e_phase (g_st g)); auto. destruct (e_version (g_st g)) as [[|]|]; auto;
    (destruct (match c_hb_timeout cfg with Some _ => _ | None => _ end); auto;
     destruct (c_hb_ivl cfg); auto; destruct (_ && _); eauto).
Qed.

(* every input but network bytes leaves the protocol state alone or closes it, and emits only sends, the
   heartbeat's Timeout and the two actions of close() *)
Lemma e_input_cases cfg g i :
  (exists d t, i = INet d t) \/
  (g_st (fst (e_input cfg g i)) = g_st g \/ g_st (fst (e_input cfg g i)) = closed (g_st g)) /\
  forall x, In x (snd (e_input cfg g i)) ->
    match x with OSend _ _ | OErr ETimeout | OCork false | OClose _ => True | _ => False end.
Proof.
  destruct i as [d t|m|t| |w]; [eauto|right; cbn [e_input]..].
  - unfold e_app. destruct (e_phase (g_st g)); cbn; intuition (subst; exact I).
  - destruct (e_tick_cases cfg g t) as [-> | [-> | (h & b & ->)]]; cbn; intuition (subst; exact I).
  - cbn. intuition (subst; exact I).
  - cbn. intuition.
Qed.

Definition no_panic (o : list eout) : Prop := ~ In OPanic o.

Lemma cork_out_np cfg : no_panic (cork_out cfg).
Proof. unfold no_panic, cork_out. destruct (_ && _); cbn; intuition discriminate. Qed.

(* what network bytes never make the engine emit: a panic, the heartbeat's Timeout, a scheduled close *)
Definition net_out (x : eout) : Prop := x <> OPanic /\ x <> OErr ETimeout /\ forall c, x <> OClose c.

Lemma etrans_out cfg st b st' o x : etrans cfg st b st' o -> In x o -> net_out x.
Proof.
  intros H Hin. unfold net_out. destruct H; unfold cork_out, ready_send in Hin;
    repeat match type of Hin with context [if ?c then _ else _] => destruct c end;
    cbn [In app] in Hin; intuition congruence.
Qed.

Lemma Run_out cfg st b st' r o x : Run (estep cfg) st b st' r o -> In x o -> net_out x.
Proof.
  induction 1 as [|s b0 s1 n o1 s2 r0 o2 Hs HR IH]; [intros []|].
  intros Hin. apply in_app_or in Hin. destruct Hin; [eapply etrans_out; eauto using estep_etrans|auto].
Qed.

Lemma e_net_out cfg g d t x : In x (snd (e_net cfg g d t)) -> net_out x.
Proof.
  destruct (e_net_Run cfg g d t) as (o & HR & ->). intros Hin. apply filter_In in Hin.
  eapply Run_out; [exact HR|apply Hin].
Qed.

Lemma e_input_no_panic cfg g i : no_panic (snd (e_input cfg g i)).
Proof.
  intros H. destruct (e_input_cases cfg g i) as [(d & t & ->) | [_ Ho]].
  - exact (proj1 (e_net_out _ _ _ _ _ H) eq_refl).
  - apply Ho in H. exact H.
Qed.

(* [estep] answers Need whatever the buffer holds in one live state only: Greeting with version ZMTP/2 (estep_cases).
   The step that sets that version also leaves Greeting, so the state is never reached. *)
Definition st_inv (st : estate) : Prop := e_phase st = PGreeting -> e_version st <> Some V2.

Lemma etrans_inv cfg st b st' o : etrans cfg st b st' o -> st_inv st -> st_inv st'.
Proof. unfold st_inv. destruct 1; cbn; intros Hi Hp; try congruence. auto. Qed.

Lemma Run_inv cfg st b st' r o : Run (estep cfg) st b st' r o -> st_inv st -> st_inv st'.
Proof. induction 1; eauto using etrans_inv, estep_etrans. Qed.

Definition buf_bound (cfg : ecfg) : N := N.max 64 (9 + Z.to_N (c_maxsz cfg)).

Lemma dec_need_bound m b : dec_buffer m b = DNeed -> (0 <= m)%Z -> len b < 9 + Z.to_N m.
Proof.
  unfold dec_buffer, len. destruct b as [|fl t]; [cbn; lia|].
  destruct (length (fl :: t) <? hdr_len fl)%nat eqn:E.
  { intros _ _. unfold hdr_len in E. destruct (is_long fl); lia. }
  unfold over_limit. destruct (0 <=? m)%Z eqn:Em; [|lia]. cbn [andb].
  destruct (Z.to_N m <? raw_size fl (fl :: t)) eqn:El; [discriminate|].
  destruct (N.of_nat (length (fl :: t) - hdr_len fl) <? raw_size fl (fl :: t)) eqn:E2; [|discriminate].
  intros _ _. unfold hdr_len in *. destruct (is_long fl); lia.
Qed.

Lemma estep_need_bound cfg st r :
  estep cfg st r = Need -> st_inv st -> e_phase st <> PClosed -> (0 <= c_maxsz cfg)%Z ->
  len r < buf_bound cfg.
Proof.
  unfold buf_bound, len. intros H Hinv Hnc Hm.
  pose proof (estep_cases cfg st r) as E. rewrite H in E.
  destruct E as [Hc | [[Hp Hv] | [Hl | Hd]]]; [congruence | destruct (Hinv Hp Hv) | lia |].
  pose proof (dec_need_bound _ _ Hd Hm). unfold len in *. lia.
Qed.

Definition g_inv (g : engine) : Prop := st_inv (g_st g).

Lemma e_input_inv cfg g i : g_inv g -> g_inv (fst (e_input cfg g i)).
Proof.
  unfold g_inv. intros H. destruct (e_input_cases cfg g i) as [(d & t & ->) | [[-> | ->] _]]; [|exact H|discriminate].
  destruct (e_net_Run cfg g d t) as (o & HR & _). eapply Run_inv; eauto.
Qed.

Lemma fresh_engine_inv t : g_inv (e_new t).
Proof. intros _. discriminate. Qed.

Theorem e_run_inv cfg : forall is g, g_inv g -> g_inv (fst (e_run cfg g is)).
Proof.
  induction is as [|i is IH]; intros g H; [exact H|]. rewrite e_run_cons. apply IH, e_input_inv, H.
Qed.

Lemma be_val_lt_pow l : wf_bytes l = true -> be_val l < 256 ^ N.of_nat (length l).
Proof.
  induction l as [|x l IH] using rev_ind; intros H.
  - cbn. lia.
  - rewrite wf_bytes_app in H. apply andb_true_iff in H. destruct H as [Hl Hx].
    cbn [wf_bytes forallb] in Hx. rewrite andb_true_r in Hx. apply N.ltb_lt in Hx.
    rewrite be_val_snoc, app_length. cbn [length].
    replace (N.of_nat (length l + 1)) with (N.succ (N.of_nat (length l))) by lia.
    rewrite N.pow_succ_r'. specialize (IH Hl). nia.
Qed.
