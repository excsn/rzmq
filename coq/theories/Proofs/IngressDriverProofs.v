(* IngressDriver (Model/IngressDriver.v). `i_step_moves` says once what any atomic step does to the four
   lists; conservation, the capacity bound and `ingress_exactly_once` are read off it. *)
From RZ Require Import Base.Prelude Model.IngressDriver.

Set Implicit Arguments.

Section IngressProofs.
Variable T : Type.
Variable weight : T -> nat.
Variable cap : nat.

Notation i_step := (i_step weight cap true).
Notation i_run := (i_run weight cap true).

(* What an atomic step - driver attempt at any program point, cancellation, consumer pop, new
   decoded batch - does to the four lists: nothing, or the read arm appends a batch to the ingress
   buffer, or the front of the buffer goes to the back of the queue, which had room, or the
   consumer pops the queue. *)
Inductive i_moves (e : iev T) (s s' : istate T) : Prop :=
| im_none : i_ib s' = i_ib s -> i_q s' = i_q s -> i_delivered s' = i_delivered s -> i_entered s' = i_entered s ->
    i_moves e s s'
| im_enq x : e = DEnq x -> i_ib s' = i_ib s ++ [x] -> i_q s' = i_q s -> i_delivered s' = i_delivered s ->
    i_entered s' = i_entered s ++ [x] -> i_moves e s s'
| im_queue x : i_ib s = x :: i_ib s' -> i_q s' = i_q s ++ [x] -> length (i_q s) < cap ->
    i_delivered s' = i_delivered s -> i_entered s' = i_entered s -> i_moves e s s'
| im_pop x : i_ib s' = i_ib s -> i_q s = x :: i_q s' -> i_delivered s' = i_delivered s ++ [x] ->
    i_entered s' = i_entered s -> i_moves e s s'.

Lemma i_step_moves s e : i_moves e s (i_step s e).
Proof.
  destruct s as [ib q fut pc last del ent].
  destruct e; cbn [IngressDriver.i_step i_pc i_ib i_q i_fut i_last i_delivered i_entered].
  - destruct pc; try now apply im_none. destruct fut; [now apply im_none | now eapply im_enq].
  - destruct pc, ib; now apply im_none.
  - destruct pc as [| |t|t|t]; [now apply im_none| | | |];
      (destruct ib as [|x r]; [unfold finish; try destruct (0 <? _); now apply im_none|]);
      (destruct (Nat.ltb_spec (length q) cap); unfold finish; try destruct (0 <? _);
       solve [now apply im_none | now eapply im_queue]).
  - destruct pc; now apply im_none.
  - destruct q; [now apply im_none | now eapply im_pop].
Qed.

Lemma i_step_conserves s e :
  i_delivered s ++ i_q s ++ i_ib s = i_entered s ->
  i_delivered (i_step s e) ++ i_q (i_step s e) ++ i_ib (i_step s e) = i_entered (i_step s e).
Proof.
  intros H.
  destruct (i_step_moves s e) as [-> -> -> -> | x _ -> -> -> -> | x Hib -> _ -> -> | x -> Hq -> ->];
    rewrite <- H; [reflexivity | | rewrite Hib | rewrite Hq]; rewrite <- !app_assoc; reflexivity.
Qed.

Lemma i_step_bounded s e : length (i_q s) <= cap -> length (i_q (i_step s e)) <= cap.
Proof.
  intros H. destruct (i_step_moves s e) as [_ -> _ _ | x _ _ -> _ _ | x _ -> Hr _ _ | x _ Hq _ _].
  - exact H.
  - exact H.
  - rewrite app_length. cbn. lia.
  - rewrite Hq in H. cbn in H. lia.
Qed.

(* only the read arm adds to the ingress buffer and to the decoded sequence *)
Lemma i_step_no_enq s e : (forall x, e <> DEnq x) ->
  length (i_ib (i_step s e)) <= length (i_ib s) /\ i_entered (i_step s e) = i_entered s.
Proof.
  intros Hne. destruct (i_step_moves s e) as [-> _ _ -> | x He _ _ _ _ | x -> _ _ _ -> | x -> _ _ ->];
    cbn [length]; auto. elim (Hne x He).
Qed.

(* INGRESS EXACTLY ONCE. For every interleaving of driver attempts, consumer pops, cancellations
   of the driver future at any point where it is not being polled, and newly decoded batches:
   what the application has popped, followed by what sits in the per-pipe queue, followed by
   what is still in the ingress buffer, is exactly the sequence that was decoded - at every
   moment, hence no loss, no duplicate and no reordering however the future is dropped. *)
Theorem ingress_exactly_once evs :
  let s := i_run (i_new T) evs in
  i_delivered s ++ i_q s ++ i_ib s = i_entered s /\ length (i_q s) <= cap.
Proof.
  apply fold_left_inv with (P := fun s => i_delivered s ++ i_q s ++ i_ib s = i_entered s /\ length (i_q s) <= cap).
  - intros s e [H1 H2]. split; [apply i_step_conserves, H1 | apply i_step_bounded, H2].
  - split; [reflexivity | apply Nat.le_0_l].
Qed.

Corollary ingress_quiescent evs :
  let s := i_run (i_new T) evs in
  i_q s = [] -> i_ib s = [] -> i_delivered s = i_entered s.
Proof.
  intros s Hq Hib. destruct (ingress_exactly_once evs) as [H _]. fold s in H.
  rewrite Hq, Hib, !app_nil_r in H. exact H.
Qed.

End IngressProofs.
