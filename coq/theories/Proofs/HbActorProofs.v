(* The session's two heartbeat timers around the engine (Model/HbActor.v): Timeout only at a tick or at the backstop
   poll and only for a PING outstanding for the whole window; the backstop ends the session at PING + window
   whatever traffic there is in between. *)
From RZ Require Import Base.Prelude Base.Stepper Model.Codec Proofs.CodecProofs Model.Engine
  Proofs.EngineProofs Proofs.EngineHeartbeat Model.HbActor.
Local Open Scope N_scope.

(* HEARTBEAT_TIMEOUT as the session's backstop timer sees it (30 s when the option is unset) *)
Definition hb_window (cfg : ecfg) : N := match c_hb_timeout cfg with Some t => t | None => 30000000000 end.

Lemma first_err_in o e : first_err o = Some e -> In (OErr e) o.
Proof.
  unfold first_err. intros H.
  destruct (filter (fun x => match x with OErr _ => true | _ => false end) o) as [|x l] eqn:E; [discriminate|].
  assert (Hin : In x (x :: l)) by (left; reflexivity). rewrite <- E in Hin. apply filter_In in Hin.
  destruct x; try discriminate. inversion H; subst. apply Hin.
Qed.

Lemma first_err_app_none m cfg g : first_err (snd (e_app cfg g m)) = None.
Proof. unfold e_app. destruct (e_phase (g_st g)); reflexivity. Qed.

(* the heartbeat logic of the session gives up with Timeout only at a tick or at the backstop timer, and only when a
   PING has been outstanding for the whole window *)
Theorem a_timeout_not_early cfg s e :
  a_fatal s = None -> a_fatal (fst (a_step cfg s e)) = Some ETimeout ->
  exists now p, (e = ATick now \/ e = ADeadline now) /\
    h_waiting (g_hb (a_eng s)) = true /\ h_last_ping (g_hb (a_eng s)) = Some p /\
    (match e with ATick _ => exists t, c_hb_timeout cfg = Some t /\ t <= now - p | _ => hb_window cfg <= now - p end).
Proof.
  intros Hs Hf. unfold a_step in Hf. rewrite Hs in Hf. destruct e as [now|now|d now|now|m].
  - destruct (e_tick cfg (a_eng s) now) as [g o] eqn:Et. apply first_err_in in Hf.
    destruct (timeout_only_when_unanswered cfg (a_eng s) now) as (t & p & Ht & Hw & Hp & Hl); [rewrite Et; exact Hf|].
    exists now, p. eauto 8.
  - unfold e_pong_deadline in Hf. fold (hb_window cfg) in Hf.
    destruct (h_waiting (g_hb (a_eng s))); [|cbn in Hf; congruence].
    destruct (h_last_ping (g_hb (a_eng s))) as [p|]; [|cbn in Hf; congruence].
    destruct (N.leb_spec (p + hb_window cfg) now); [|cbn in Hf; congruence].
    exists now, p. repeat split; auto. lia.
  - destruct (e_net cfg (a_eng s) d now) as [g o] eqn:En. apply first_err_in in Hf.
    destruct (e_net_no_timeout cfg (a_eng s) d now). rewrite En. exact Hf.
  - discriminate.
  - destruct (e_app cfg (a_eng s) m). discriminate.
Qed.

(* the backstop: polled at or after PING + window while the PING is still unanswered, the session gives up *)
Theorem a_dead_peer_closed_at_deadline cfg s p now :
  a_fatal s = None -> h_waiting (g_hb (a_eng s)) = true -> h_last_ping (g_hb (a_eng s)) = Some p ->
  p + hb_window cfg <= now ->
  a_fatal (fst (a_step cfg s (ADeadline now))) = Some ETimeout /\ snd (a_step cfg s (ADeadline now)) = [OErr ETimeout].
Proof.
  intros Hs Hw Hp Hl. unfold a_step. rewrite Hs. rewrite (pong_deadline_from_ping cfg (a_eng s) p Hw Hp).
  fold (hb_window cfg). assert (p + hb_window cfg <=? now = true) as -> by lia. split; reflexivity.
Qed.
Theorem a_deadline_idle cfg s now :
  a_fatal s = None -> h_waiting (g_hb (a_eng s)) = false -> a_step cfg s (ADeadline now) = (s, []).
Proof.
  intros Hs Hw. unfold a_step. rewrite Hs. rewrite (pong_deadline_none_when_not_waiting cfg _ Hw). reflexivity.
Qed.

(* events after which the PING is still unanswered: no PONG is parsed, no tick / backstop poll reaches its deadline *)
Definition a_unanswered (cfg : ecfg) (s : ast) (e : aev) : bool :=
  match e with
  | ANet d _ => let '(_, _, o) := pump (estep cfg) emu EMU_MAX (g_st (a_eng s)) (g_acc (a_eng s) ++ d) in negb (has_pong o)
  | ATick now => negb (timed_out cfg (a_eng s) now)
  | ADeadline now => match e_pong_deadline cfg (a_eng s) with Some d => now <? d | None => true end
  | AWrote _ | AApp _ => true
  end.
Fixpoint a_unanswered_run (cfg : ecfg) (s : ast) (es : list aev) : bool :=
  match es with
  | [] => true
  | e :: rest => a_unanswered cfg s e && a_unanswered_run cfg (fst (a_step cfg s e)) rest
  end.

(* while the session is alive its events are the engine's inputs; the backstop poll leaves the engine alone *)
Lemma a_step_eng cfg s e : a_fatal s = None ->
  a_eng (fst (a_step cfg s e)) =
  match e with
  | ATick now => fst (e_input cfg (a_eng s) (ITick now))
  | ANet d now => fst (e_input cfg (a_eng s) (INet d now))
  | AWrote now => fst (e_input cfg (a_eng s) (IWrote now))
  | AApp m => fst (e_input cfg (a_eng s) (IApp m))
  | ADeadline _ => a_eng s
  end.
Proof.
  intros Hs. unfold a_step. rewrite Hs. destruct e as [now|now|d now|now|m]; cbn [e_input].
  - destruct (e_tick cfg (a_eng s) now). reflexivity.
  - destruct (e_pong_deadline cfg (a_eng s)) as [d|]; [destruct (d <=? now)|]; reflexivity.
  - destruct (e_net cfg (a_eng s) d now). reflexivity.
  - reflexivity.
  - destruct (e_app cfg (a_eng s) m). reflexivity.
Qed.

Lemma a_step_keeps_ping cfg s e p :
  a_fatal s = None -> h_waiting (g_hb (a_eng s)) = true -> h_last_ping (g_hb (a_eng s)) = Some p ->
  a_unanswered cfg s e = true ->
  h_waiting (g_hb (a_eng (fst (a_step cfg s e)))) = true /\ h_last_ping (g_hb (a_eng (fst (a_step cfg s e)))) = Some p.
Proof.
  intros Hs Hw Hp Hu. rewrite a_step_eng by exact Hs.
  destruct e; [apply unanswered_keeps_ping; assumption|auto|apply unanswered_keeps_ping; assumption..].
Qed.

Lemma fst_a_run_cons cfg s e es : fst (a_run cfg s (e :: es)) = fst (a_run cfg (fst (a_step cfg s e)) es).
Proof. cbn [a_run]. destruct (a_step cfg s e) as [s1 o]. cbn [fst]. destruct (a_run cfg s1 es). reflexivity. Qed.

Lemma a_fatal_absorbing cfg : forall es s e0, a_fatal s = Some e0 -> a_fatal (fst (a_run cfg s es)) = Some e0.
Proof.
  induction es as [|e es IH]; intros s e0 H; [exact H|].
  rewrite fst_a_run_cons. apply IH. unfold a_step. rewrite H. exact H.
Qed.

(* "closed if no PONG arrives within HEARTBEAT_TIMEOUT of that PING", for the session: whatever happens after the PING
   at p - writes of the local application, inbound frames that are not a PONG, ticks and backstop polls before their
   deadlines - either the session has already given up for another reason, or the backstop poll at or after
   p + window ends it with Timeout; the window is anchored at the PING *)
Theorem a_dead_peer_closed_despite_traffic cfg p now : forall es s,
  a_fatal s = None -> h_waiting (g_hb (a_eng s)) = true -> h_last_ping (g_hb (a_eng s)) = Some p ->
  a_unanswered_run cfg s es = true -> p + hb_window cfg <= now ->
  a_fatal (fst (a_run cfg s (es ++ [ADeadline now]))) <> None.
Proof.
  induction es as [|e es IH]; intros s Hs Hw Hp Hu Hl.
  - cbn [app]. rewrite fst_a_run_cons. cbn [a_run fst].
    destruct (a_dead_peer_closed_at_deadline cfg s p now Hs Hw Hp Hl) as [Hf _]. rewrite Hf. discriminate.
  - cbn [a_unanswered_run] in Hu. apply andb_true_iff in Hu. destruct Hu as [Hu1 Hu2].
    cbn [app]. rewrite fst_a_run_cons.
    destruct (a_step_keeps_ping cfg s e p Hs Hw Hp Hu1) as [Hw' Hp'].
    destruct (a_fatal (fst (a_step cfg s e))) as [e0|] eqn:Ef.
    + rewrite (a_fatal_absorbing cfg _ _ e0 Ef). discriminate.
    + apply IH; assumption.
Qed.
