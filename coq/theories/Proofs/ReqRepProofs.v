(* Proofs about Model/ReqRep.v (C10).  All statements quantify over every number of tasks, every
   program and every schedule; the ones named *_outside additionally require that calls do not
   overlap (`nonoverlap`), the ones named *_refuted exhibit a racing schedule.
   One invariant theorem for the generic machine (`sys_inv_run`) is instantiated per socket type and class
   of schedules: `req_outside`, `rep_outside` (no overlap), `rep_all_schedules` (every schedule), and, with
   the step lemma `qstep_all`, in Props/C10.v for REQ's state check on every schedule. *)
From RZ Require Import Base.Prelude Model.Balancer Model.ReqRep.

Lemma upd_length {A} n (x : A) l : length (upd n x l) = length l.
Proof. revert n; induction l as [|y l IH]; intros [|n]; simpl; auto. Qed.

Lemma nth_error_upd_same {A} n (x : A) l y : nth_error l n = Some y -> nth_error (upd n x l) n = Some x.
Proof. revert n; induction l as [|z l IH]; intros [|n]; simpl; try discriminate; auto. Qed.

Lemma nth_error_upd_other {A} n m (x : A) l : n <> m -> nth_error (upd n x l) m = nth_error l m.
Proof.
  revert n m; induction l as [|z l IH]; intros [|n] [|m] H; simpl; auto; try congruence.
Qed.

Definition eqb_ok {A} (e : A -> A -> bool) : Prop := forall x y, e x y = true <-> x = y.

Lemma list_eqb_ok {A} (e : A -> A -> bool) : eqb_ok e -> forall a b, list_eqb e a b = true <-> a = b.
Proof.
  unfold eqb_ok. intros He a. induction a as [|x a IH]; intros [|y b]; simpl; try (split; congruence).
  rewrite andb_true_iff, He, IH. split; [intros [-> ->]; reflexivity | intros [= -> ->]; auto].
Qed.

Lemma pair_eqb_ok {A B} (ea : A -> A -> bool) (eb : B -> B -> bool) :
  eqb_ok ea -> eqb_ok eb -> forall p q, pair_eqb ea eb p q = true <-> p = q.
Proof.
  unfold eqb_ok, pair_eqb. intros Ha Hb [a b] [a' b']. simpl. rewrite andb_true_iff, Ha, Hb, pair_equal_spec. reflexivity.
Qed.

Lemma opt_eqb_ok {A} (e : A -> A -> bool) : eqb_ok e -> forall a b, opt_eqb e a b = true <-> a = b.
Proof. unfold eqb_ok. intros He [x|] [y|]; simpl; try (split; congruence). rewrite He. split; congruence. Qed.

Lemma pinfo_eqb_ok i j : pinfo_eqb i j = true <-> i = j.
Proof. exact (pair_eqb_ok _ _ N.eqb_eq (list_eqb_ok _ N.eqb_eq) i j). Qed.

Lemma inq_eqb_ok a b : inq_eqb a b = true <-> a = b.
Proof.
  destruct a as [r p], b as [r' p']. unfold inq_eqb. simpl.
  rewrite andb_true_iff, (list_eqb_ok _ N.eqb_eq),
    (list_eqb_ok _ (pair_eqb_ok _ _ N.eqb_eq (list_eqb_ok _ (list_eqb_ok _ N.eqb_eq)))).
  split; [intros [-> ->]; reflexivity | intros [= -> ->]; auto].
Qed.

Lemma qobs_eqb_spec a b :
  qobs_eqb a b = true <->
  q_st a = q_st b /\ q_lb a = q_lb b /\ q_att a = q_att b /\ q_closed a = q_closed b /\
  q_in a = q_in b /\ q_out a = q_out b.
Proof.
  unfold qobs_eqb.
  rewrite !andb_true_iff, (opt_eqb_ok _ N.eqb_eq), !(list_eqb_ok _ N.eqb_eq), Nat.eqb_eq, inq_eqb_ok,
    (list_eqb_ok _ pinfo_eqb_ok).
  destruct (q_lb a), (q_lb b); simpl. intuition congruence.
Qed.

Lemma qobs_eqb_refl a : qobs_eqb a a = true.
Proof. apply qobs_eqb_spec. repeat split. Qed.

Lemma pobs_eqb_refl a : pobs_eqb a a = true.
Proof.
  unfold pobs_eqb.
  rewrite !andb_true_iff, (opt_eqb_ok _ pinfo_eqb_ok), !(list_eqb_ok _ N.eqb_eq), inq_eqb_ok, (list_eqb_ok _ pinfo_eqb_ok).
  auto.
Qed.

Section MachineFacts.
  Context {Sh Pc Ev Env : Type}.
  Variable pc0 : Pc.
  Variable tstep : nat -> call -> Pc -> Sh -> option (Sh * list Ev * (Pc + res)).
  Variable estep : Env -> Sh -> Sh * list Ev.
  Variable obs_eqb : Sh -> Sh -> bool.

  Notation step_task := (step_task pc0 tstep obs_eqb).
  Notation step := (step pc0 tstep estep obs_eqb).
  Notation run := (run pc0 tstep estep obs_eqb).
  Notation nonoverlap := (nonoverlap pc0 tstep estep obs_eqb).

  Definition pc_of (tk : task Pc) : Pc := match t_pc tk with Some pc => pc | None => pc0 end.

  (* what one step of task t can do *)
  Inductive tstep_spec (t : nat) (s s' : sys Sh Pc Ev) : Prop :=
  | TS_stay : s' = s -> tstep_spec t s s'
  | TS_move tk c rest sh' evs nxt d :
      nth_error (s_tasks s) t = Some tk -> t_prog tk = c :: rest ->
      tstep t c (pc_of tk) (s_sh s) = Some (sh', evs, nxt) ->
      d = t_dirty tk || negb (obs_eqb (s_sh s) sh') ->
      s' = mkSys sh'
             (upd t match nxt with inl pc' => mkTask (c :: rest) (Some pc') d | inr _ => mkTask rest None false end
                  (s_tasks s))
             (s_trace s ++ evs)
             (s_log s ++ match nxt with inl _ => [] | inr r => [mkEntry t c r d] end) ->
      tstep_spec t s s'.

  Lemma step_task_spec t s : tstep_spec t s (step_task t s).
  Proof.
    unfold ReqRep.step_task.
    destruct (nth_error (s_tasks s) t) as [tk|] eqn:Et; [|now apply TS_stay].
    destruct (t_prog tk) as [|c rest] eqn:Ep; [now apply TS_stay|].
    fold (pc_of tk).
    destruct (tstep t c (pc_of tk) (s_sh s)) as [[[sh' evs] nxt]|] eqn:Es; [|now apply TS_stay].
    eapply TS_move; eauto. destruct nxt; rewrite ?app_nil_r; reflexivity.
  Qed.

  Lemma run_cons x xs s : run (x :: xs) s = run xs (step s x).
  Proof. reflexivity. Qed.
  Lemma run_app xs ys s : run (xs ++ ys) s = run ys (run xs s).
  Proof. unfold ReqRep.run. apply fold_left_app. Qed.

  Lemma others_idle_from_spec i t (l : list (task Pc)) :
    others_idle_from i t l = true ->
    forall j tk, nth_error l j = Some tk -> i + j <> t -> t_pc tk = None.
  Proof.
    revert i; induction l as [|x l IH]; simpl; intros i H [|j] tk Hn Hne; try discriminate;
      apply andb_true_iff in H as [H1 H2].
    - injection Hn as ->. unfold idleb in H1. destruct (Nat.eqb_spec i t); [lia|].
      destruct (t_pc tk); [discriminate|reflexivity].
    - apply (IH _ H2 j); [exact Hn|lia].
  Qed.

  Lemma others_idle_spec t (s : sys Sh Pc Ev) :
    others_idle t s = true -> forall j tk, nth_error (s_tasks s) j = Some tk -> j <> t -> t_pc tk = None.
  Proof. intros H j tk Hn Hne. eapply (others_idle_from_spec 0); eauto. Qed.

  (* An invariant in three parts: G about shared state and trace, L about the pc and dirty bit of every
     task that is inside a call, P about every entry of the log.  A step of a task is only asked to keep
     the task's own L; so a run keeps the invariant if no two calls overlap (every other task is then
     idle and has nothing to keep), or, for every schedule, if L is `stable`. *)
  Section Invariant.
    Variable G : Sh -> list Ev -> Prop.
    Variable L : Sh -> list Ev -> Pc -> bool -> Prop.
    Variable P : entry -> Prop.
    Hypothesis L_start : forall sh tr, G sh tr -> L sh tr pc0 false.
    Hypothesis tstep_keeps : forall t c pc d sh tr,
      G sh tr -> L sh tr pc d ->
      match tstep t c pc sh with
      | None => True
      | Some (sh', evs, nxt) =>
          G sh' (tr ++ evs) /\
          match nxt with
          | inl pc' => L sh' (tr ++ evs) pc' (d || negb (obs_eqb sh sh'))
          | inr r => P (mkEntry t c r (d || negb (obs_eqb sh sh')))
          end
      end.
    Hypothesis estep_keeps : forall e sh tr,
      G sh tr ->
      let (sh', evs) := estep e sh in
      G sh' (tr ++ evs) /\ forall pc d, L sh tr pc d -> L sh' (tr ++ evs) pc d.

    Definition task_inv (sh : Sh) (tr : list Ev) (tk : task Pc) : Prop :=
      match t_pc tk with
      | None => t_dirty tk = false
      | Some pc => L sh tr pc (t_dirty tk)
      end.
    Definition sys_inv (s : sys Sh Pc Ev) : Prop :=
      G (s_sh s) (s_trace s) /\
      (forall j tk, nth_error (s_tasks s) j = Some tk -> task_inv (s_sh s) (s_trace s) tk) /\
      Forall P (s_log s).

    (* L does not look at the shared state, and what it says of the trace later events do not undo *)
    Definition stable : Prop := forall sh tr pc d sh' evs, L sh tr pc d -> L sh' (tr ++ evs) pc d.

    Lemma sys_inv_step x s :
      sys_inv s -> stable \/ match x with ST t => others_idle t s | SE _ => true end = true ->
      sys_inv (step s x).
    Proof.
      intros (HG & HT & HP) Hx. destruct x as [t|e]; simpl.
      - destruct (step_task_spec t s) as [->|tk c rest sh' evs nxt d Hn Hp Hs -> ->]; [repeat split; assumption|].
        assert (HL : L (s_sh s) (s_trace s) (pc_of tk) (t_dirty tk)).
        { generalize (HT _ _ Hn). unfold task_inv, pc_of. destruct (t_pc tk); [auto|]. intros ->. auto. }
        generalize (tstep_keeps t c _ _ _ _ HG HL). rewrite Hs. intros [HG' Hnxt].
        split; [exact HG'|]. split; simpl.
        + intros j tk' Hj. destruct (Nat.eq_dec t j) as [<-|Hne].
          * rewrite (nth_error_upd_same _ _ _ _ Hn) in Hj. injection Hj as <-. destruct nxt; [exact Hnxt|reflexivity].
          * rewrite nth_error_upd_other in Hj by exact Hne. generalize (HT _ _ Hj). unfold task_inv.
            destruct Hx as [St|Id]; [destruct (t_pc tk'); [apply St|auto]|].
            rewrite (others_idle_spec _ _ Id _ _ Hj) by congruence. auto.
        + apply Forall_app. split; [exact HP|]. destruct nxt; auto.
      - unfold step_env. generalize (estep_keeps e _ _ HG). destruct (estep e (s_sh s)) as [sh' evs].
        intros [HG' HL']. repeat split; [exact HG'| |exact HP].
        simpl. intros j tk Hj. generalize (HT _ _ Hj). unfold task_inv. destruct (t_pc tk); auto.
    Qed.

    Theorem sys_inv_run sh progs xs :
      G sh [] -> stable \/ nonoverlap xs (init sh progs) = true -> sys_inv (run xs (init sh progs)).
    Proof.
      intros HG. assert (H0 : sys_inv (init sh progs)).
      { repeat split; [exact HG| |constructor]. simpl. intros j tk Hn.
        apply nth_error_In, in_map_iff in Hn as [p [<- _]]. reflexivity. }
      revert H0. generalize (@init Sh Pc Ev sh progs). induction xs as [|x xs IH]; intros s Hs H; [exact Hs|].
      rewrite run_cons. apply IH.
      - apply sys_inv_step; [exact Hs|]. destruct H as [St|No]; [left; exact St|right].
        apply andb_true_iff in No as [H1 _]. exact H1.
      - destruct H as [St|No]; [left; exact St|right]. apply andb_true_iff in No as [_ H2]. exact H2.
    Qed.
  End Invariant.

  Lemma step_keeps_ntasks (s : sys Sh Pc Ev) x : length (s_tasks (step s x)) = length (s_tasks s).
  Proof.
    destruct x as [t|e]; simpl.
    - destruct (step_task_spec t s) as [->| ? ? ? ? ? ? ? ? ? ? ? ->]; simpl; rewrite ?upd_length; reflexivity.
    - unfold step_env. destruct (estep e (s_sh s)). reflexivity.
  Qed.

  Definition only_task0 (xs : list (sched Env)) : Prop :=
    Forall (fun x => match x with ST t => t = 0 | SE _ => True end) xs.

  (* a single task never overlaps with itself *)
  Lemma single_task_nonoverlap xs : forall (s : sys Sh Pc Ev),
    length (s_tasks s) <= 1 -> only_task0 xs -> nonoverlap xs s = true.
  Proof.
    induction xs as [|x xs IH]; intros s Hl Ho; [reflexivity|].
    inversion Ho; subst. simpl. rewrite IH; auto.
    - destruct x as [t|e]; [subst|reflexivity].
      unfold others_idle. destruct (s_tasks s) as [|tk [|tk2 l]]; simpl in *; auto. lia.
    - rewrite step_keeps_ntasks. exact Hl.
  Qed.
End MachineFacts.

Lemma ofold_none {A E} (f : A -> E -> option A) tr :
  fold_left (fun o e => match o with Some a => f a e | None => None end) tr None = None.
Proof. induction tr; simpl; auto. Qed.

Lemma arun_none tr : arun tr None = None.
Proof. apply ofold_none. Qed.
Lemma arun_app tr evs a : arun (tr ++ evs) a = arun evs (arun tr a).
Proof. apply fold_left_app. Qed.

Lemma first_frame_ok p : is_ok (first_frame p) = true.
Proof. destruct p as [|x [|y p]]; reflexivity. Qed.
Lemma first_frame_not_invalid p b : first_frame p <> RInvalid b.
Proof. destruct p as [|x [|y p]]; discriminate. Qed.

Lemma q_nb_eq t s :
  q_nb t s = match iq_pop (q_in s) with
             | Some (_, m, q') => (qset_in (qleave t s) q', [], inl (QRecvGot (first_frame (req_payload m))))
             | None => (qleave t s, [], inl QRecvNbEmpty)
             end.
Proof. reflexivity. Qed.

(* automaton state vs. socket state *)
Definition st_match (a : ast) (sh : qsh) : Prop :=
  is_some (q_st sh) = match a with A1 => true | _ => false end.

Definition qG (sh : qsh) (tr : list aev) : Prop :=
  match arun tr (Some A0) with Some a => st_match a sh | None => False end.

(* what is known about a task that is inside a call while no other task is *)
Definition pc_okq (a : ast) (sh : qsh) (pc : qpc) (d : bool) : Prop :=
  match pc with
  | QStart => d = false
  | QSendChecked | QSendPushed _ => q_st sh = None
  | QRecvChecked | QRecvParked _ | QRecvNbEmpty => a <> A0 /\ d = false
  | QRecvMChecked | QRecvMParked => a <> A0
  | QRecvGot r =>
      r <> RInvalid false /\ (is_ok r = true -> a <> A0) /\ (r = RInvalid true -> d = false /\ q_st sh = None)
  | QRecvMGot r => (forall b, r <> RInvalid b) /\ (forall x, r <> ROkMore x) /\ (is_ok r = true -> a <> A0)
  end.
Definition qL (sh : qsh) (tr : list aev) (pc : qpc) (d : bool) : Prop :=
  match arun tr (Some A0) with Some a => pc_okq a sh pc d | None => False end.

Definition failed_clean (e : entry) : Prop := (exists b, e_res e = RInvalid b) -> e_dirty e = false.

Arguments pc_okq : simpl never.

Lemma okq_got a sh r d : (forall b, r <> RInvalid b) -> a <> A0 -> pc_okq a sh (QRecvGot r) d.
Proof. intros Hr Ha. split; [apply Hr|]. split; [auto|]. intros X. destruct (Hr _ X). Qed.

Lemma qstep_outside a t c pc d sh :
  st_match a sh -> pc_okq a sh pc d ->
  match qstep t c pc sh with
  | None => True
  | Some (sh', evs, nxt) =>
      match arun evs (Some a) with
      | Some a' =>
          st_match a' sh' /\
          match nxt with
          | inl pc' => pc_okq a' sh' pc' (d || negb (qobs_eqb sh sh'))
          | inr r => failed_clean (mkEntry t c r (d || negb (qobs_eqb sh sh')))
          end
      | None => False
      end
  end.
Proof.
  unfold st_match, failed_clean. intros HG HL. destruct pc; unfold pc_okq in HL; simpl.
  - (* QStart: the state check changes nothing, so a call it refuses ends clean; one it admits has seen the
       socket state it needs *)
    subst d. destruct (c_op c), (q_st sh) eqn:E; simpl; rewrite ?qobs_eqb_refl; (split; [exact HG|]);
      try (intros _; reflexivity); unfold pc_okq.
    + (* OSend *) exact E.
    + (* ORecv *) split; [intros ->; discriminate HG|reflexivity].
    + (* ORecvM *) intros ->. discriminate HG.
  - (* QSendChecked *)
    destruct (get_next (q_lb sh)) as [[p|] b']; [|exact I].
    destruct (memN p (q_closed sh)); simpl; (split; [exact HG|]); auto. intros [b [=]].
  - (* QSendPushed commits AS: the automaton accepts it because q_st sh = None rules out A1 *)
    rewrite HL in HG. destruct a; try discriminate HG; simpl; (split; [reflexivity|intros [b [=]]]).
  - (* QRecvChecked *)
    destruct HL as [Ha ->]. rewrite q_nb_eq. simpl.
    destruct (q_permit sh), (iq_pop (q_in sh)) as [[[p m] q']|]; simpl; (split; [exact HG|]);
      try (apply okq_got; [intro; apply first_frame_not_invalid | exact Ha]);
      (* parking touches the notifier and the timers only, which are not observable *)
      (split; [exact Ha | apply negb_false_iff, qobs_eqb_spec; repeat split]).
  - (* QRecvParked *)
    destruct HL as [Ha ->]. rewrite q_nb_eq. simpl.
    destruct (negb (q_gen sh =? seen)%nat || memn t (q_woken sh)), (iq_pop (q_in sh)) as [[[p m] q']|]; simpl;
      try (destruct (memn t (q_tmo sh)); [simpl|exact I]); (split; [exact HG|]);
      try (apply okq_got; [intro; apply first_frame_not_invalid || discriminate | exact Ha]).
    split; [exact Ha | apply negb_false_iff, qobs_eqb_spec; repeat split].
  - (* QRecvNbEmpty *)
    destruct HL as [Ha ->]. split; [exact HG|]. rewrite qobs_eqb_refl.
    destruct (q_st sh) eqn:E; simpl; [apply okq_got; [discriminate | exact Ha]|].
    split; [discriminate|]. split; [discriminate|]. auto.
  - (* QRecvGot r commits.  Still expecting: a = A1 and r decides where the automaton goes.  Reset meanwhile:
       the socket state stays, and Hr2 says that a successful r comes from a recv that was under way (A2) *)
    destruct HL as (Hr1 & Hr2 & Hr3). destruct (q_st sh) eqn:E; simpl.
    + destruct a; try discriminate HG.
      destruct r as [x|x|[|]|k]; simpl; rewrite ?E; try (split; [reflexivity | intros [b [=]]]).
      * destruct (Hr3 eq_refl) as [_ [=]].
      * destruct Hr1; reflexivity.
    + destruct r as [x|x|[|]|k]; simpl; rewrite ?E, ?qobs_eqb_refl.
      1, 2: destruct a; try discriminate HG; [destruct Hr2; reflexivity|]; simpl; (split; [reflexivity | intros [b [=]]]).
      * split; [exact HG|]. intros _. destruct (Hr3 eq_refl) as [-> _]. reflexivity.
      * destruct Hr1; reflexivity.
      * split; [exact HG | intros [b [=]]].
  - (* QRecvMChecked *)
    destruct (iq_pop (q_in sh)) as [[[p m] q']|]; simpl; (split; [exact HG|]); [|exact HL].
    repeat split; auto; discriminate.
  - (* QRecvMParked *)
    destruct (iq_pop (q_in sh)) as [[[p m] q']|]; [|destruct (memn t (q_tmo sh)); [|exact I]]; simpl;
      (split; [exact HG|]); repeat split; auto; discriminate.
  - (* QRecvMGot r commits like QRecvGot r with r = ROk _ or RErr _ *)
    destruct HL as (Hr1 & Hr0 & Hr2).
    destruct r as [x|x|b|k]; [|destruct (Hr0 x); reflexivity|destruct (Hr1 b); reflexivity|];
      destruct (q_st sh) eqn:E, a; try discriminate HG; simpl; rewrite ?E;
      try (split; [reflexivity | intros [b [=]]]).
    destruct Hr2; reflexivity.
Qed.

(* a peer event leaves the socket state alone, or abandons the exchange under way *)
Lemma qestep_st e sh :
  let (sh', evs) := qestep e sh in
  q_st sh' = q_st sh /\ evs = [] \/ q_st sh <> None /\ q_st sh' = None /\ evs = [AX].
Proof.
  destruct e; simpl; auto.
  - destruct (memN p (q_att sh)); auto.
  - destruct (memN p (q_att sh)); simpl; auto. destruct (q_st sh) as [u|] eqn:E; auto.
    destruct (N.eqb u p); simpl; auto. right. repeat split; [discriminate|].
    unfold q_notify_one. simpl. destruct (q_waiters sh); reflexivity.
  - destruct (memN p (q_att sh)); auto.
  - destruct (q_rcvtimeo sh && memn t (q_parked sh) && negb (memn t (q_tmo sh))); auto.
Qed.

Lemma pc_okq_st a sh sh' pc d : q_st sh' = q_st sh -> pc_okq a sh pc d -> pc_okq a sh' pc d.
Proof. intros E. destruct pc; unfold pc_okq; rewrite ?E; auto. Qed.

Lemma pc_okq_reset sh sh' pc d : q_st sh' = None -> pc_okq A1 sh pc d -> pc_okq A2 sh' pc d.
Proof.
  intros E. destruct pc; unfold pc_okq; rewrite ?E; auto; try (intros [H1 H2]; split; [discriminate|auto]); try discriminate.
  - intros [H1 [H2 H3]]. split; [auto|]. split; [discriminate|]. intros X. destruct (H3 X). auto.
  - intros [H1 [H2 H3]]. split; [auto|]. split; [auto|]. discriminate.
Qed.

(* calls that do not overlap: the commit events follow the alternation automaton, and a recv that is woken up
   with InvalidState("state changed while waiting") has changed nothing either *)
Theorem req_outside n tmo progs xs :
  qnonoverlap xs (qinit n tmo progs) = true ->
  req_accepts (s_trace (qrun xs (qinit n tmo progs))) = true /\
  Forall failed_clean (s_log (qrun xs (qinit n tmo progs))).
Proof.
  intros H.
  destruct (sys_inv_run QStart qstep qestep qobs_eqb qG qL failed_clean) with (sh := qsh0 n tmo) (progs := progs) (xs := xs)
    as (HG & _ & HP); auto; unfold qG, qL in *.
  - intros sh tr. destruct (arun tr (Some A0)); auto. reflexivity.
  - intros t c pc d sh tr. destruct (arun tr (Some A0)) as [a|] eqn:Ea; [|contradiction]. intros HG HL.
    generalize (qstep_outside a t c pc d sh HG HL). destruct (qstep t c pc sh) as [[[sh' evs] nxt]|]; [|auto].
    rewrite arun_app, Ea. destruct (arun evs (Some a)); [|contradiction]. destruct nxt; auto.
  - intros e sh tr HG. generalize (qestep_st e sh). destruct (qestep e sh) as [sh' evs].
    rewrite arun_app. destruct (arun tr (Some A0)) as [a|]; [|contradiction]. unfold st_match in *.
    intros [[E ->]|(N & E & ->)]; simpl.
    + rewrite E. split; [exact HG|]. intros pc d. apply pc_okq_st, E.
    + destruct (q_st sh); [|congruence]. destruct a; try discriminate HG. simpl. rewrite E.
      split; [reflexivity|]. intros pc d. apply pc_okq_reset, E.
  - reflexivity.
  - split; [|exact HP]. unfold req_accepts, qrun. destruct (arun _ _); [reflexivity|contradiction].
Qed.

(* without resets and multi-frame replies the automaton is literally send, recv, send, ... *)
Fixpoint alternates (send_due : bool) (tr : list aev) : bool :=
  match tr with
  | [] => true
  | AS :: r => send_due && alternates false r
  | AR :: r => negb send_due && alternates true r
  | _ :: _ => false
  end.
Definition plain (tr : list aev) : Prop := Forall (fun e => e = AS \/ e = AR) tr.

Lemma alternates_of_accepts tr : forall a, plain tr -> arun tr (Some a) <> None -> a <> A2 ->
  alternates (match a with A0 => true | _ => false end) tr = true.
Proof.
  induction tr as [|e tr IH]; intros a Hp Hr Ha; [reflexivity|].
  inversion Hp as [|? ? He Hp']; subst. simpl in Hr.
  destruct He as [->| ->]; destruct a; simpl in *; try congruence;
    try (rewrite arun_none in Hr; congruence).
  - apply (IH A1); auto; discriminate.
  - apply (IH A0); auto; discriminate.
Qed.

(* the race: two tasks, each one send(), six steps *)
Theorem req_alternates_refuted :
  exists n tmo progs xs,
    req_accepts (s_trace (qrun xs (qinit n tmo progs))) = false /\
    ok_ops (s_log (qrun xs (qinit n tmo progs))) = [OSend; OSend] /\
    map fst (q_out (s_sh (qrun xs (qinit n tmo progs)))) = [0%N; 0%N].
Proof.
  exists 1, false, [[mkCall OSend 11]; [mkCall OSend 13]], [ST 0; ST 1; ST 0; ST 1; ST 0; ST 1].
  vm_compute. auto.
Qed.

(* a call that fails the state check that opens it changes nothing - for EVERY schedule *)
Definition check_failed_clean (e : entry) : Prop := e_res e = RInvalid false -> e_dirty e = false.

(* no other step of a call produces InvalidState without the "late" mark *)
Definition pc_okq_all (pc : qpc) (d : bool) : Prop :=
  match pc with
  | QStart => d = false
  | QRecvGot r | QRecvMGot r => r <> RInvalid false
  | _ => True
  end.

Lemma qstep_all t c pc d sh :
  pc_okq_all pc d ->
  match qstep t c pc sh with
  | None => True
  | Some (sh', evs, nxt) =>
      match nxt with
      | inl pc' => pc_okq_all pc' (d || negb (qobs_eqb sh sh'))
      | inr r => check_failed_clean (mkEntry t c r (d || negb (qobs_eqb sh sh')))
      end
  end.
Proof.
  unfold check_failed_clean. intros HL. destruct pc; simpl in *.
  - subst d. destruct (c_op c), (q_st sh); simpl; rewrite ?qobs_eqb_refl; auto; discriminate.
  - destruct (get_next (q_lb sh)) as [[p|] b']; [|exact I]. destruct (memN p (q_closed sh)); simpl; auto; discriminate.
  - discriminate.
  - rewrite q_nb_eq. simpl.
    destruct (q_permit sh), (iq_pop (q_in sh)) as [[[p m] q']|]; simpl; auto; apply first_frame_not_invalid.
  - rewrite q_nb_eq.
    destruct (negb (q_gen sh =? seen)%nat || memn t (q_woken sh)), (iq_pop (q_in sh)) as [[[p m] q']|]; simpl;
      try (destruct (memn t (q_tmo sh)); simpl); auto; try apply first_frame_not_invalid; discriminate.
  - destruct (is_some (q_st sh)); discriminate.
  - destruct (is_some (q_st sh)); [destruct (finished r)|]; simpl; congruence.
  - destruct (iq_pop (q_in sh)) as [[[p m] q']|]; simpl; auto; discriminate.
  - destruct (iq_pop (q_in sh)) as [[[p m] q']|]; [|destruct (memn t (q_tmo sh))]; simpl; auto; discriminate.
  - destruct (is_some (q_st sh)); simpl; congruence.
Qed.

(* the ghost bit means what it says *)
Lemma dirty_false_means_unchanged (s : qsys) t :
  match nth_error (s_tasks (qstep_sys s (ST t))) t with
  | Some tk' => t_pc tk' <> None -> t_dirty tk' = false
  | None => False
  end ->
  s_sh (qstep_sys s (ST t)) = s_sh s \/
  (q_st (s_sh (qstep_sys s (ST t))) = q_st (s_sh s) /\ q_lb (s_sh (qstep_sys s (ST t))) = q_lb (s_sh s) /\
   q_att (s_sh (qstep_sys s (ST t))) = q_att (s_sh s) /\ q_closed (s_sh (qstep_sys s (ST t))) = q_closed (s_sh s) /\
   q_in (s_sh (qstep_sys s (ST t))) = q_in (s_sh s) /\ q_out (s_sh (qstep_sys s (ST t))) = q_out (s_sh s)) \/
  t_pc (nth t (s_tasks (qstep_sys s (ST t))) (mkTask [] None false)) = None.
Proof.
  unfold qstep_sys. simpl.
  destruct (step_task_spec QStart qstep qobs_eqb t s) as [->|tk c rest sh' evs nxt d Hn Hp Hs -> ->]; [auto|].
  simpl. rewrite (nth_error_nth _ _ _ (nth_error_upd_same _ _ _ _ Hn)), (nth_error_upd_same _ _ _ _ Hn).
  destruct nxt as [pc'|r]; simpl; [|auto].
  intros H. destruct (orb_false_elim _ _ (H ltac:(discriminate))) as [_ D].
  apply negb_false_iff, qobs_eqb_spec in D. intuition congruence.
Qed.

Lemma prunA_none tr : prunA tr None = None.
Proof. apply ofold_none. Qed.
Lemma prunA_app tr evs a : prunA (tr ++ evs) a = prunA evs (prunA tr a).
Proof. apply fold_left_app. Qed.

(* a peer event leaves the stored request alone or drops it; it never sends *)
Lemma pestep_st e sh :
  let (sh', evs) := pestep e sh in
  p_out sh' = p_out sh /\ (p_st sh' = p_st sh /\ evs = [] \/ p_st sh' = None /\ evs = [PEReset]).
Proof.
  destruct e; simpl; auto.
  - destruct (memN p (p_att sh)); auto.
  - destruct (memN p (p_att sh)); simpl; auto. destruct (p_st sh) as [i|] eqn:E; auto.
    destruct (N.eqb (fst i) p); simpl; auto.
  - destruct (memN p (p_att sh)); auto.
  - destruct (p_rcvtimeo sh && memn t (p_parked sh) && negb (memn t (p_tmo sh))); auto.
Qed.

(* what is known about a task that is inside a call while no other task is: a recv is under way only in
   ReadyToReceive, so it only ever commits there *)
Definition pc_okp (sh : psh) (pc : ppc) : Prop :=
  match pc with
  | PStart | PSendTaken _ => True
  | PRecvChecked | PRecvParked | PRecvPopped _ _ | PRecvGot _ _ => p_st sh = None
  end.

Lemma pstep_outside t c pc sh :
  pc_okp sh pc ->
  match pstep t c pc sh with
  | None => True
  | Some (sh', evs, nxt) =>
      prunA evs (Some (p_st sh)) = Some (p_st sh') /\
      match nxt with inl pc' => pc_okp sh' pc' | inr _ => True end
  end.
Proof.
  intros HL. destruct pc; simpl in *.
  - destruct (c_op c), (p_st sh) eqn:E; simpl; rewrite ?E, ?(proj2 (pinfo_eqb_ok _ _) eq_refl); auto.
  - destruct (iq_pop (p_in sh)) as [[[p m] q']|]; simpl; auto.
  - destruct (iq_pop (p_in sh)) as [[[p m] q']|]; [|destruct (memn t (p_tmo sh))]; simpl; auto.
  - destruct (memN p (p_eps sh)); [destruct (extract_routing_prefix raw)|]; simpl; auto.
  - rewrite HL. auto.
  - destruct (memN (fst i) (p_eps sh)); simpl; auto.
Qed.

(* calls that do not overlap: the commit events drive the REP automaton into the socket's own state *)
Theorem rep_outside n tmo progs xs :
  pnonoverlap xs (pinit n tmo progs) = true ->
  prunA (s_trace (prun xs (pinit n tmo progs))) (Some None) = Some (p_st (s_sh (prun xs (pinit n tmo progs)))).
Proof.
  intros H.
  apply (sys_inv_run PStart pstep pestep pobs_eqb (fun sh tr => prunA tr (Some None) = Some (p_st sh))
           (fun sh _ pc _ => pc_okp sh pc) (fun _ => True)); auto.
  - intros; exact I.
  - intros t c pc d sh tr HG HL. generalize (pstep_outside t c pc sh HL).
    destruct (pstep t c pc sh) as [[[sh' evs] nxt]|]; [|auto]. rewrite prunA_app, HG. destruct nxt; auto.
  - intros e sh tr HG. generalize (pestep_st e sh). destruct (pestep e sh) as [sh' evs].
    rewrite prunA_app, HG. intros [_ [[E ->]|[E ->]]]; simpl; rewrite E; (split; [reflexivity|]);
      intros [] _; simpl; congruence.
Qed.

(* without resets the commit events are literally recv i, send i, recv j, send j, ... *)
Fixpoint palternates (pending : option pinfo) (tr : list pev) : bool :=
  match tr, pending with
  | [], _ => true
  | PERecv i :: r, None => palternates (Some i) r
  | PETake i :: r, Some j => pinfo_eqb i j && palternates None r
  | _, _ => false
  end.
Definition pplain (tr : list pev) : Prop := Forall (fun e => e <> PEReset) tr.

Lemma palternates_of_accepts tr : forall a, pplain tr -> prunA tr (Some a) <> None -> palternates a tr = true.
Proof.
  induction tr as [|e tr IH]; intros a Hp Hr; [reflexivity|].
  inversion Hp as [|? ? He Hp']; subst. simpl in Hr.
  destruct e as [i|i|]; [| |congruence]; destruct a as [j|]; simpl in *;
    try (rewrite prunA_none in Hr; congruence).
  - apply IH; auto.
  - destruct (pinfo_eqb i j); [|rewrite prunA_none in Hr; congruence]. simpl. apply IH; auto.
Qed.

(* On every schedule a reply is addressed to the request stored by the immediately preceding recv, and a call
   refused with InvalidState has changed nothing.  The first is said with the REP automaton without its check
   on recv: racing recvs overwrite the stored request *)
Definition lstep (b : option pinfo) (e : pev) : option (option pinfo) :=
  match e with PERecv i => Some (Some i) | _ => pstepA b e end.
Definition lrun (tr : list pev) (b : option (option pinfo)) : option (option pinfo) :=
  fold_left (fun o e => match o with Some b => lstep b e | None => None end) tr b.
Lemma lrun_app tr evs b : lrun (tr ++ evs) b = lrun evs (lrun tr b).
Proof. apply fold_left_app. Qed.

Lemma lrun_last_recv tr i : lrun tr (Some None) = Some (Some i) -> exists tr0, tr = tr0 ++ [PERecv i].
Proof.
  induction tr as [|x tr _] using rev_ind; [discriminate|].
  rewrite lrun_app. simpl. destruct (lrun tr (Some None)) as [b|]; [|discriminate].
  destruct x as [j|j|]; simpl.
  - intros [= ->]. eauto.
  - destruct b as [k|]; [destruct (pinfo_eqb j k)|]; discriminate.
  - discriminate.
Qed.

Lemma lrun_take_pred tr1 i tr2 :
  lrun (tr1 ++ PETake i :: tr2) (Some None) <> None -> exists tr0, tr1 = tr0 ++ [PERecv i].
Proof.
  rewrite lrun_app. simpl. destruct (lrun tr1 (Some None)) as [[j|]|] eqn:E; simpl;
    [destruct (pinfo_eqb i j) eqn:Eij|..]; try (intros []; apply ofold_none).
  apply pinfo_eqb_ok in Eij as ->. intros _. apply lrun_last_recv, E.
Qed.

Definition out_ok (tr : list pev) (o : N * msg) : Prop :=
  exists pre c, snd o = pre ++ rep_payload c /\ In (PETake (fst o, pre)) tr.
Definition pG (sh : psh) (tr : list pev) : Prop :=
  lrun tr (Some None) = Some (p_st sh) /\ Forall (out_ok tr) (p_out sh).
Definition pL (tr : list pev) (pc : ppc) (d : bool) : Prop :=
  match pc with PStart => d = false | PSendTaken i => In (PETake i) tr | _ => True end.

Lemma out_ok_mono tr evs o : out_ok tr o -> out_ok (tr ++ evs) o.
Proof. intros [pre [c [H1 H2]]]. exists pre, c. split; [exact H1|]. apply in_or_app; auto. Qed.
Lemma pL_mono tr evs pc d : pL tr pc d -> pL (tr ++ evs) pc d.
Proof. destruct pc; simpl; auto using in_or_app. Qed.

Lemma pstep_all t c pc d sh tr :
  pG sh tr -> pL tr pc d ->
  match pstep t c pc sh with
  | None => True
  | Some (sh', evs, nxt) =>
      pG sh' (tr ++ evs) /\
      match nxt with
      | inl pc' => pL (tr ++ evs) pc' (d || negb (pobs_eqb sh sh'))
      | inr r => failed_clean (mkEntry t c r (d || negb (pobs_eqb sh sh')))
      end
  end.
Proof.
  unfold pG, failed_clean. intros [HG HO] HL.
  assert (HO' : forall evs, Forall (out_ok (tr ++ evs)) (p_out sh)).
  { intros evs. eapply Forall_impl; [|exact HO]. intros o. apply out_ok_mono. }
  destruct pc; simpl in *.
  - subst d. destruct (c_op c), (p_st sh) eqn:E; simpl; rewrite lrun_app, HG, ?pobs_eqb_refl; simpl;
      rewrite ?E, ?(proj2 (pinfo_eqb_ok _ _) eq_refl); repeat split; auto using in_or_app, in_eq.
  - destruct (iq_pop (p_in sh)) as [[[p m] q']|]; simpl; rewrite lrun_app, HG; repeat split; auto.
  - destruct (iq_pop (p_in sh)) as [[[p m] q']|]; [|destruct (memn t (p_tmo sh)); [|exact I]]; simpl;
      rewrite lrun_app, HG; repeat split; auto. intros [b [=]].
  - destruct (memN p (p_eps sh)); [destruct (extract_routing_prefix raw)|]; simpl;
      rewrite lrun_app, HG; repeat split; auto. intros [b [=]].
  - rewrite lrun_app, HG. repeat split; auto. intros [b X]. destruct (is_multi c); [discriminate|].
    destruct (first_frame_not_invalid _ _ X).
  - destruct (memN (fst i) (p_eps sh)); simpl; rewrite lrun_app, HG; repeat split; auto; try (intros [b [=]]).
    apply Forall_app. split; [apply HO'|]. constructor; [|constructor].
    exists (snd i), c. rewrite app_nil_r. destruct i. auto.
Qed.

Lemma pestep_all e sh tr :
  pG sh tr ->
  let (sh', evs) := pestep e sh in
  pG sh' (tr ++ evs) /\ forall pc d, pL tr pc d -> pL (tr ++ evs) pc d.
Proof.
  unfold pG. intros [HG HO]. generalize (pestep_st e sh). destruct (pestep e sh) as [sh' evs].
  rewrite lrun_app, HG. intros [-> H]. repeat split.
  - destruct H as [[-> ->]|[-> ->]]; reflexivity.
  - eapply Forall_impl; [|exact HO]. intros o. apply out_ok_mono.
  - intros pc d. apply pL_mono.
Qed.

Theorem rep_all_schedules n tmo progs xs :
  let s := prun xs (pinit n tmo progs) in
  lrun (s_trace s) (Some None) = Some (p_st (s_sh s)) /\
  Forall (out_ok (s_trace s)) (p_out (s_sh s)) /\
  Forall failed_clean (s_log s).
Proof.
  destruct (sys_inv_run PStart pstep pestep pobs_eqb pG (fun _ => pL) failed_clean) with
    (sh := psh0 n tmo) (progs := progs) (xs := xs) as ([HG HO] & _ & HP); auto.
  - reflexivity.
  - exact pstep_all.
  - exact pestep_all.
  - split; [reflexivity|constructor].
  - left. intros _ tr pc d _ evs. apply pL_mono.
Qed.

Theorem rep_reply_to_requester n tmo progs xs :
  let s := prun xs (pinit n tmo progs) in
  (forall tr1 i tr2, s_trace s = tr1 ++ PETake i :: tr2 -> exists tr0, tr1 = tr0 ++ [PERecv i]) /\
  Forall (out_ok (s_trace s)) (p_out (s_sh s)).
Proof.
  intros s. destruct (rep_all_schedules n tmo progs xs) as (HG & HO & _).
  split; [|exact HO].
  intros tr1 i tr2 E. apply (lrun_take_pred tr1 i tr2). rewrite <- E. unfold s. rewrite HG. discriminate.
Qed.
