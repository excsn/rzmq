(* Lemmas about Model/Envelope.v: flag normalisation, envelope round trips for every payload
   (rt_<sender>_<receiver>), the mixed-mode / raw cases stated as what they are, what send_multipart
   does with an unknown and with a known identity. *)
From RZ Require Import Base.Prelude Model.RouterMap Model.Envelope Proofs.RouterMapProofs.
Local Open Scope N_scope.

Lemma norm_flags_cons2 f g l : norm_flags (f :: g :: l) = with_more f :: norm_flags (g :: l).
Proof. reflexivity. Qed.
Lemma norm_flags_cons f l : l <> [] -> norm_flags (f :: l) = with_more f :: norm_flags l.
Proof. destruct l; [congruence|reflexivity]. Qed.
Lemma norm_flags_step f l : norm_flags (f :: l) = (nonnil l, snd f) :: norm_flags l.
Proof. destruct l; reflexivity. Qed.
Lemma clear_last_cons f l : l <> [] -> clear_last (f :: l) = f :: clear_last l.
Proof. destruct l; [congruence|reflexivity]. Qed.
Lemma norm_flags_neq l : l <> [] -> norm_flags l <> [].
Proof. destruct l as [|f [|g t]]; simpl; congruence. Qed.
Lemma clear_last_norm l : clear_last (norm_flags l) = norm_flags l.
Proof.
  induction l as [|f [|g t] IH]; try reflexivity.
  rewrite norm_flags_cons2, clear_last_cons, IH by (apply norm_flags_neq; discriminate). reflexivity.
Qed.
Lemma more_ok_norm l : more_ok (norm_flags l).
Proof.
  unfold more_ok. induction l as [|f [|g t] IH]; try reflexivity.
  rewrite norm_flags_cons2, norm_flags_cons, IH by (apply norm_flags_neq; discriminate). reflexivity.
Qed.
Lemma datas_norm l : datas (norm_flags l) = datas l.
Proof. induction l as [|f t IH]; [reflexivity|]. rewrite norm_flags_step. simpl. rewrite <- IH. reflexivity. Qed.
Lemma datas_clear l : datas (clear_last l) = datas l.
Proof. induction l as [|f [|g t] IH]; try reflexivity. change (datas (f :: g :: t)) with (snd f :: datas (g :: t)). rewrite <- IH. reflexivity. Qed.
Lemma more_ok_clear l : more_ok l -> clear_last l = l.
Proof. unfold more_ok. intros H. rewrite <- H at 1. rewrite clear_last_norm. exact H. Qed.
Lemma more_ok_tail f g t : more_ok (f :: g :: t) -> fmore f = true /\ more_ok (g :: t).
Proof. unfold more_ok. rewrite norm_flags_cons2. intros [= H1 H2]. split; [rewrite <- H1; reflexivity|exact H2]. Qed.
Lemma more_ok_single f : more_ok [f] -> fmore f = false.
Proof. unfold more_ok. simpl. intros [= H]. rewrite <- H. reflexivity. Qed.
Lemma nonnil_true {A} (l : list A) : l <> [] -> nonnil l = true.
Proof. destruct l; [congruence|reflexivity]. Qed.

(* a flag-normalised non-empty frame list is exactly one message on a byte-stream transport *)
Lemma wire_split_aux_norm cur l :
  l <> [] -> wire_split_aux cur (norm_flags l) = [List.rev cur ++ norm_flags l].
Proof.
  revert cur. induction l as [|f [|g t] IH]; intros cur H; [congruence| |].
  - reflexivity.
  - rewrite norm_flags_cons2.
    change (wire_split_aux cur (with_more f :: norm_flags (g :: t)))
      with (wire_split_aux (with_more f :: cur) (norm_flags (g :: t))).
    rewrite IH by discriminate. cbn [List.rev]. rewrite <- app_assoc. reflexivity.
Qed.
Lemma one_message_norm l : l <> [] -> one_message (norm_flags l).
Proof. intros H. unfold one_message, wire_split. rewrite wire_split_aux_norm by exact H. reflexivity. Qed.
Lemma one_message_more_ok l : l <> [] -> more_ok l -> one_message l.
Proof. intros H M. rewrite <- M. apply one_message_norm. exact H. Qed.

Lemma dealer_prepare_auto payload :
  payload <> [] -> dealer_prepare false payload = delim true :: norm_flags payload.
Proof. destruct payload as [|x t]; [congruence|]. intros _. reflexivity. Qed.
Lemma dealer_prepare_auto_nil : dealer_prepare false [] = [delim true; delim false].
Proof. reflexivity. Qed.
Lemma dealer_prepare_one_message manual payload : payload <> [] -> one_message (dealer_prepare manual payload).
Proof.
  intros H. destruct manual.
  - apply one_message_norm. exact H.
  - destruct payload as [|x t]; [congruence|]. unfold dealer_prepare. apply one_message_norm. discriminate.
Qed.

Lemma fempty_with_more f : fempty (with_more f) = fempty f.
Proof. reflexivity. Qed.
Lemma fempty_false f : snd f <> [] -> fempty f = false.
Proof. unfold fempty. destruct (snd f); [congruence|reflexivity]. Qed.
Lemma router_wire_auto s idm payload :
  s = SDefault \/ s = SDealer ->
  router_wire s false idm payload =
  with_more idm :: match payload with [] => [delim false] | _ => delim true :: norm_flags payload end.
Proof.
  intros [-> | ->]; destruct payload as [|x t]; reflexivity.
Qed.
Lemma router_wire_req manual idm payload :
  router_wire SReq manual idm payload =
  match payload with [] => [delim false] | _ => delim true :: norm_flags payload end.
Proof. destruct payload as [|x t]; reflexivity. Qed.
Lemma router_wire_auto_one_message s idm payload :
  s = SDefault \/ s = SDealer -> one_message (router_wire s false idm payload).
Proof. intros [-> | ->]; apply one_message_norm; destruct payload; discriminate. Qed.
Lemma router_wire_req_one_message manual idm payload : one_message (router_wire SReq manual idm payload).
Proof. apply one_message_norm. discriminate. Qed.

(* whatever the peer's type, unless it is a ROUTER: one leading empty frame is stripped, as REQ does *)
Lemma router_process_incoming_auto pt raw :
  pt <> Some TRouter -> router_process_incoming false pt raw = req_process_incoming raw.
Proof. intros P. destruct pt as [[| | |]|]; try congruence; destruct raw; reflexivity. Qed.

Lemma rt_dealer_router pt id payload :
  payload <> [] -> pt <> Some TRouter ->
  router_recv false pt id (dealer_prepare false payload) = (true, id) :: norm_flags payload.
Proof.
  intros H P. unfold router_recv. rewrite router_process_incoming_auto, dealer_prepare_auto by assumption.
  unfold router_transform. cbn [req_process_incoming delim fempty snd]. rewrite nonnil_true by (apply norm_flags_neq; exact H).
  rewrite clear_last_cons by (apply norm_flags_neq; exact H). rewrite clear_last_norm. reflexivity.
Qed.
Lemma rt_dealer_router_nil pt id :
  pt <> Some TRouter -> router_recv false pt id (dealer_prepare false []) = [(true, id); (false, [])].
Proof. intros P. unfold router_recv. rewrite router_process_incoming_auto by exact P. reflexivity. Qed.

Lemma rt_router_dealer s idm payload :
  s = SDefault \/ s = SDealer -> snd idm <> [] ->
  dealer_process_incoming false (router_wire s false idm payload) = norm_flags payload.
Proof.
  intros S I. rewrite router_wire_auto by exact S. unfold dealer_process_incoming.
  rewrite fempty_with_more, (fempty_false idm I). destruct payload as [|x t]; reflexivity.
Qed.

Lemma rt_req_router pt id msg :
  pt <> Some TRouter -> router_recv false pt id (req_send msg) = [(true, id); no_more msg].
Proof. intros P. unfold router_recv. rewrite router_process_incoming_auto by exact P. reflexivity. Qed.

Lemma rt_router_req manual idm payload :
  req_recv_multipart (router_wire SReq manual idm payload) = norm_flags payload.
Proof. rewrite router_wire_req. destruct payload as [|x t]; reflexivity. Qed.

Lemma rt_req_rep msg : rep_extract (req_send msg) = ([delim true], [no_more msg]).
Proof. reflexivity. Qed.
Lemma rt_rep_req reply :
  reply <> [] -> req_recv_multipart (rep_send_multipart [delim true] reply) = norm_flags reply.
Proof.
  intros H. destruct reply as [|x t]; [congruence|reflexivity].
Qed.
Lemma rt_rep_req_single r : req_recv (rep_send [delim true] r) = no_more r.
Proof. reflexivity. Qed.
Lemma rt_rep_nil : rep_send_multipart [delim true] [] = [delim true; delim false].
Proof. reflexivity. Qed.

Lemma rt_dealer_rep payload :
  payload <> [] -> rep_extract (dealer_prepare false payload) = ([delim true], norm_flags payload).
Proof. intros H. rewrite dealer_prepare_auto by exact H. reflexivity. Qed.
Lemma rt_rep_dealer reply :
  reply <> [] -> dealer_process_incoming false (rep_send_multipart [delim true] reply) = norm_flags reply.
Proof.
  intros H. destruct reply as [|x t]; [congruence|reflexivity].
Qed.

Lemma rt_dealer_dealer payload :
  payload <> [] -> dealer_process_incoming false (dealer_prepare false payload) = norm_flags payload.
Proof. intros H. rewrite dealer_prepare_auto by exact H. reflexivity. Qed.

Section Parts.
  Variables (mandatory manual : bool) (conn : uri -> conn_state) (hint : pipe).
  Notation parts := (router_send_parts mandatory manual conn hint).

  Lemma parts_cons st f t :
    parts st (f :: t) =
    let '(st1, o) := router_send_part mandatory manual conn hint st f in
    let '(st2, os) := parts st1 t in (st2, o :: os).
  Proof. reflexivity. Qed.
  Lemma part_continue m u f :
    conn u = COk ->
    router_send_part mandatory manual conn hint (m, Some u) f = ((m, if fmore f then Some u else None), PSent u [f]).
  Proof. intros C. unfold router_send_part. rewrite C. reflexivity. Qed.
  Lemma parts_continue m u payload :
    conn u = COk -> payload <> [] -> more_ok payload ->
    parts (m, Some u) payload = ((m, None), map (fun f => PSent u [f]) payload).
  Proof.
    intros C. induction payload as [|f [|g t] IH]; intros H M; [congruence| |].
    - rewrite parts_cons, part_continue by exact C. rewrite (more_ok_single f M). reflexivity.
    - destruct (more_ok_tail f g t M) as [F M'].
      rewrite parts_cons, part_continue by exact C. rewrite F.
      rewrite IH by (discriminate || exact M'). reflexivity.
  Qed.
  Lemma wire_to_map u payload : wire_to u (map (fun f => PSent u [f]) payload) = payload.
  Proof. induction payload as [|f t IH]; simpl; [reflexivity|]. rewrite N.eqb_refl, IH. reflexivity. Qed.

  (* identity known and connection fine: identity frame, (auto) delimiter, then the parts as given *)
  Lemma parts_known m id u s o payload :
    id <> [] -> fget id m = Some (u, s, o) -> conn u = COk -> payload <> [] -> more_ok payload ->
    parts (m, None) ((true, id) :: payload) =
    ((m, None), PSent u ((true, id) :: if manual then [] else [delim true]) :: map (fun f => PSent u [f]) payload).
  Proof.
    intros I F C H M. rewrite parts_cons. unfold router_send_part at 1.
    cbn [fmore fst snd negb]. destruct id as [|x r]; [congruence|]. rewrite F, C.
    rewrite parts_continue by assumption. reflexivity.
  Qed.
  Lemma parts_known_wire m id u s o payload :
    id <> [] -> fget id m = Some (u, s, o) -> conn u = COk -> payload <> [] -> more_ok payload ->
    wire_to u (snd (parts (m, None) ((true, id) :: payload))) =
    (true, id) :: (if manual then [] else [delim true]) ++ payload.
  Proof.
    intros I F C H M. rewrite (parts_known m id u s o) by assumption. cbn [snd wire_to]. rewrite N.eqb_refl, wire_to_map.
    reflexivity.
  Qed.
  Lemma part_unknown m id :
    id <> [] -> fget id m = None ->
    router_send_part mandatory manual conn hint (m, None) (true, id) =
    ((m, None), if mandatory then PUnreachable else PDropped).
  Proof. intros I F. unfold router_send_part. cbn [fmore fst snd negb]. destruct id; [congruence|]. rewrite F. reflexivity. Qed.
End Parts.

Lemma rt_router_parts_dealer mandatory conn hint m id u s o payload :
  id <> [] -> fget id m = Some (u, s, o) -> conn u = COk -> payload <> [] -> more_ok payload ->
  dealer_process_incoming false
    (wire_to u (snd (router_send_parts mandatory false conn hint (m, None) ((true, id) :: payload)))) = payload.
Proof.
  intros I F C H M. rewrite (parts_known_wire mandatory false conn hint m id u s o) by assumption.
  destruct id as [|x r]; [congruence|]. destruct payload; [congruence|]. reflexivity.
Qed.

(* DEALER manual -> ROUTER auto: the ROUTER strips one leading empty frame, whoever put it there *)
Lemma mixed_dealer_manual_router_auto pt id payload :
  pt <> Some TRouter ->
  router_recv false pt id (dealer_prepare true payload) =
  router_transform id (match norm_flags payload with
                       | f0 :: rest => if fempty f0 then rest else f0 :: rest
                       | [] => []
                       end).
Proof.
  intros P. unfold router_recv. rewrite router_process_incoming_auto by exact P.
  cbn [dealer_prepare]. destruct (norm_flags payload); reflexivity.
Qed.
Lemma mixed_dealer_manual_router_auto_datas pt id f t :
  pt <> Some TRouter ->
  datas (router_recv false pt id (dealer_prepare true (f :: t))) = id :: datas (if fempty f then t else f :: t).
Proof.
  intros P. rewrite mixed_dealer_manual_router_auto by exact P. unfold router_transform. rewrite datas_clear.
  rewrite norm_flags_step. change (fempty (nonnil t, snd f)) with (fempty f).
  destruct (fempty f); simpl; rewrite datas_norm; reflexivity.
Qed.

(* ROUTER manual with the DEALER strategy -> DEALER auto: the identity is NOT put on the wire, and the
   DEALER discards a non-empty first frame "assumed identity" (plus an empty frame after it). *)
Lemma mixed_router_manual_dealer_auto idm payload :
  dealer_process_incoming false (router_wire SDealer true idm payload) =
  match norm_flags payload with
  | [] => []
  | f0 :: rest => if fempty f0 then rest
                  else match rest with [] => [] | f1 :: rest' => if fempty f1 then rest' else rest end
  end.
Proof.
  unfold router_wire. simpl strat_prepare. unfold dealer_process_incoming. destruct (norm_flags payload) as [|f0 rest]; [reflexivity|].
  destruct (fempty f0); [reflexivity|]. destruct rest as [|f1 rest']; [reflexivity|]. destruct (fempty f1); reflexivity.
Qed.

(* both ends manual: raw pass-through *)
Lemma raw_dealer_router pt id payload :
  router_recv true pt id (dealer_prepare true payload) = router_transform id (norm_flags payload).
Proof. reflexivity. Qed.
Lemma raw_dealer_router_datas pt id payload :
  datas (router_recv true pt id (dealer_prepare true payload)) = id :: datas payload.
Proof. rewrite raw_dealer_router. unfold router_transform. rewrite datas_clear. simpl. rewrite datas_norm. reflexivity. Qed.
Lemma raw_router_dealer_strategy idm payload :
  dealer_process_incoming true (router_wire SDealer true idm payload) = norm_flags payload.
Proof. unfold router_wire. simpl strat_prepare. destruct (norm_flags payload); reflexivity. Qed.
Lemma raw_router_default_strategy idm x t :
  dealer_process_incoming true (router_wire SDefault true idm (x :: t)) = with_more idm :: norm_flags (x :: t).
Proof. reflexivity. Qed.

(* Default strategy towards a REQ peer: REQ sees the envelope *)
Lemma default_strategy_to_req idm payload :
  snd idm <> [] ->
  req_recv_multipart (router_wire SDefault false idm payload) = router_wire SDefault false idm payload.
Proof.
  intros I. rewrite router_wire_auto by (left; reflexivity). unfold req_recv_multipart, req_process_incoming.
  rewrite fempty_with_more, (fempty_false idm I). reflexivity.
Qed.

Lemma send_unknown mandatory manual conn hint m idm payload :
  snd idm <> [] -> fget (snd idm) m = None ->
  router_send_multipart mandatory manual conn hint m (idm :: payload) =
  (m, if mandatory then SUnreachable else SDropped).
Proof. intros I F. unfold router_send_multipart. destruct (snd idm) eqn:E; [congruence|]. rewrite F. reflexivity. Qed.

Lemma send_known mandatory manual conn hint m idm payload u s o :
  snd idm <> [] -> fget (snd idm) m = Some (u, s, o) -> conn u = COk ->
  router_send_multipart mandatory manual conn hint m (idm :: payload) =
  (m, SSent u (router_wire s manual idm payload)).
Proof. intros I F C. unfold router_send_multipart. destruct (snd idm) eqn:E; [congruence|]. rewrite F, C. reflexivity. Qed.

(* maps + send, EVERY history (colliding identities included): if identity i has a forward entry at
   all, its recorded owner o is a live pipe whose latest attach/announcement carried i, and a message
   addressed to i is handed to o's connection in o's strategy's wire form - never to anybody else *)
Lemma send_reaches_latest_claimant uri_of placeholder h i u st o mandatory manual conn hint b payload :
  fget i (run uri_of placeholder h) = Some (u, st, o) -> i <> [] -> conn (uri_of o) = COk ->
  sget o (spec_run placeholder h) = Some (i, st) /\
  router_send_multipart mandatory manual conn hint (run uri_of placeholder h) ((b, i) :: payload) =
  (run uri_of placeholder h, SSent (uri_of o) (router_wire st manual (b, i) payload)).
Proof.
  intros F I C. destruct (latest_claimant_reachable uri_of placeholder h i u st o F) as (U & _ & S).
  split; [exact S|]. subst u. apply (send_known mandatory manual conn hint _ (b, i) payload _ st o); assumption.
Qed.

(* two peers announce the same identity, the older one disconnects: the forward entry belongs to the
   newer pipe and stays; the live peer is reached *)
Definition wit_collision : list ev :=
  [EAttach 1 None; EAnnounce 1 (Some [65]) (Some TDealer);
   EAttach 2 None; EAnnounce 2 (Some [65]) (Some TDealer); EDetach 1].
Example collision_older_detach_example :
  let h := wit_collision in
  let m := run (fun q => q + 100) placeholder_id h in
  sget 2 (spec_run placeholder_id h) = Some ([65], SDealer) /\ sget 1 (spec_run placeholder_id h) = None /\
  rget 2 m = Some [65] /\ rget 1 m = None /\
  fget [65] m = Some (102, SDealer, 2) /\
  forall mandatory manual conn hint b payload, conn 102 = COk ->
    router_send_multipart mandatory manual conn hint m ((b, [65]) :: payload) =
    (m, SSent 102 (router_wire SDealer manual (b, [65]) payload)).
Proof.
  intros h m. assert (fget [65] m = Some (102, SDealer, 2)) as F by reflexivity.
  repeat (split; [reflexivity|]). intros mandatory manual conn hint b payload C.
  apply (send_known mandatory manual conn hint m (b, [65]) payload 102 SDealer 2); [discriminate|exact F|exact C].
Qed.
