(* The inproc path (Model/Inproc.v). `n_step_moves` says once what a step does to the sequence delivered /
   in between / accumulator / channel; two invariants are read off it: `NInvF` (the frames, for arbitrary batches)
   and `NInvM` (the messages, when every accepted batch is one whole message, so that the reader's regrouping is
   the identity). The theorems that read them at the end of a run are in Props/C01.v; the buffer bounds, which
   need the queue and the staging list apart, are in Proofs/HwmProofs.v (`NInvB`). *)
From RZ Require Import Base.Prelude Model.Codec Model.Inproc.

Lemma regroup_frames : forall bs acc out acc' out',
  regroup acc out bs = (acc', out') -> concat out' ++ acc' = concat out ++ acc ++ concat bs.
Proof.
  induction bs as [|b bs IH]; intros acc out acc' out' H; cbn [regroup] in H.
  - inversion H; subst. cbn. now rewrite app_nil_r.
  - destruct (last_not_more (acc ++ b)).
    + apply IH in H. rewrite H. cbn [concat app]. rewrite concat_app. cbn [concat]. rewrite app_nil_r, <- !app_assoc. reflexivity.
    + apply IH in H. rewrite H. cbn [concat]. rewrite <- !app_assoc. reflexivity.
Qed.

Lemma whole_last b : whole b = true -> last_not_more b = true.
Proof. unfold whole, last_not_more. destruct (rev b); [discriminate|]. intros H. apply andb_prop in H. tauto. Qed.

(* with whole-message batches and an empty accumulator, regrouping is the identity *)
Lemma regroup_whole : forall bs out, forallb whole bs = true -> regroup [] out bs = ([], out ++ bs).
Proof.
  induction bs as [|b bs IH]; intros out H; cbn [regroup].
  - now rewrite app_nil_r.
  - cbn in H. apply andb_prop in H. destruct H as [Hb Hbs]. cbn [app]. rewrite (whole_last _ Hb).
    rewrite IH by exact Hbs. rewrite <- app_assoc. reflexivity.
Qed.

(* try_send_batch moves a prefix of `out` to the back of the queue, and only while there is room *)
Lemma bulk_split cap : forall out q q' out', bulk cap q out = (q', out') ->
  q' ++ out' = q ++ out /\ length q' <= Nat.max (length q) cap /\ length out' <= length out.
Proof.
  induction out as [|x r IH]; intros q q' out' H; cbn [bulk] in H.
  - inversion H; subst. repeat split; lia.
  - destruct (Nat.ltb_spec (length q) cap).
    + apply IH in H. rewrite app_length, <- app_assoc in H. cbn [length app] in *. repeat split; try tauto; lia.
    + inversion H; subst. repeat split; lia.
Qed.

Lemma regroup_out_le : forall bs acc out acc' out',
  regroup acc out bs = (acc', out') -> length out' <= length out + length bs.
Proof.
  induction bs as [|b rest IH]; intros acc out acc' out' H; cbn [regroup] in H.
  - inversion H; subst. cbn. lia.
  - destruct (last_not_more (acc ++ b)); apply IH in H; rewrite ?app_length in H; cbn [length] in *; lia.
Qed.

(* every batch the sender hands over is one whole message *)
Fixpoint sends_whole (evs : list nev) : bool :=
  match evs with
  | [] => true
  | NSend b :: r => whole b && sends_whole r
  | _ :: r => sends_whole r
  end.

Section Run.
Variables chan_cap cap rcvbatch : nat.
Notation nstep := (n_step chan_cap cap rcvbatch).

(* the batches between the channel and the application: per-pipe queue, in-flight front, staging list *)
Definition n_mid (s : nstate) : list batch := n_q s ++ fly_list s ++ n_out s.

(* What a step does to delivered / n_mid / accumulator / channel / accepted: nothing (the reader's pushes, at
   either program point, only move batches inside n_mid); the sender appends to the channel; the reader takes
   a prefix of the channel and appends what regroup makes of it; the application pops the front. *)
Inductive n_moves (e : nev) (s s' : nstate) : Prop :=
| nm_same : n_delivered s' = n_delivered s -> n_mid s' = n_mid s -> n_acc s' = n_acc s -> n_rx s' = n_rx s ->
    n_sent s' = n_sent s -> n_moves e s s'
| nm_send b : e = NSend b -> n_delivered s' = n_delivered s -> n_mid s' = n_mid s -> n_acc s' = n_acc s ->
    n_rx s' = n_rx s ++ [b] -> n_sent s' = n_sent s ++ [b] -> n_moves e s s'
| nm_recv taken grouped : n_delivered s' = n_delivered s -> n_mid s' = n_mid s ++ grouped ->
    regroup (n_acc s) [] taken = (n_acc s', grouped) -> n_rx s = taken ++ n_rx s' -> n_sent s' = n_sent s ->
    n_moves e s s'
| nm_pop x : n_delivered s' = n_delivered s ++ [x] -> n_mid s = x :: n_mid s' -> n_acc s' = n_acc s ->
    n_rx s' = n_rx s -> n_sent s' = n_sent s -> n_moves e s s'.

Lemma n_step_moves s e : n_moves e s (nstep s e).
Proof.
  destruct s as [rx acc out fly q del sent].
  destruct e as [b|extra| |]; cbn [n_step n_delivered n_q n_out n_acc n_rx n_sent n_fly].
  - destruct (length rx <? chan_cap); [now eapply nm_send | now apply nm_same].
  - destruct out as [|o1 out]; [|now apply nm_same]. destruct fly; [now apply nm_same|].
    destruct rx as [|b rest]; [now apply nm_same|].
    destruct (regroup acc [] (b :: firstn (Nat.min extra (rcvbatch - 1)) rest)) as [acc' out'] eqn:Hr.
    destruct (bulk cap q out') as [q' out''] eqn:Hb. apply bulk_split in Hb as [Hb _].
    eapply nm_recv; [reflexivity | | exact Hr | | reflexivity].
    + unfold n_mid, fly_list. cbn [n_q n_fly n_out app]. rewrite app_nil_r. exact Hb.
    + cbn [n_rx app]. f_equal. symmetry. apply firstn_skipn.
  - destruct fly as [x|].
    + destruct (length q <? cap); [|now apply nm_same].
      destruct (bulk cap (q ++ [x]) out) as [q' out'] eqn:Hb. apply bulk_split in Hb as [Hb _].
      apply nm_same; try reflexivity. unfold n_mid, fly_list. cbn [n_q n_fly n_out app].
      rewrite Hb, <- app_assoc. reflexivity.
    + destruct out as [|x r]; now apply nm_same.
  - destruct q as [|x r]; [now apply nm_same | now eapply nm_pop].
Qed.

(* frame-level conservation, for arbitrary batches (also frame-by-frame senders) *)
Definition NInvF (s : nstate) : Prop :=
  concat (n_delivered s) ++ concat (n_q s) ++ concat (fly_list s) ++ concat (n_out s) ++ n_acc s ++ concat (n_rx s)
  = concat (n_sent s).

Lemma NInvF_mid s : NInvF s <->
  concat (n_delivered s) ++ concat (n_mid s) ++ n_acc s ++ concat (n_rx s) = concat (n_sent s).
Proof. unfold NInvF, n_mid. rewrite !concat_app, <- !app_assoc. reflexivity. Qed.

Lemma n_step_frames s e : NInvF s -> NInvF (nstep s e).
Proof.
  rewrite !NInvF_mid. intros H.
  destruct (n_step_moves s e) as [-> -> -> -> -> | b _ -> -> -> -> -> | taken grouped -> -> Hg Hrx -> | x -> Hm -> -> ->].
  - exact H.
  - rewrite !concat_app, <- H. cbn [concat]. rewrite app_nil_r, <- !app_assoc. reflexivity.
  - apply regroup_frames in Hg. cbn [concat app] in Hg.
    rewrite <- H, Hrx, !concat_app, <- !app_assoc. do 2 f_equal. rewrite app_assoc, Hg, <- app_assoc. reflexivity.
  - rewrite Hm in H. rewrite <- H, concat_app. cbn [concat]. rewrite app_nil_r, <- !app_assoc. reflexivity.
Qed.

(* message-level conservation when every accepted batch is one whole message *)
Definition NInvM (s : nstate) : Prop :=
  n_acc s = [] /\ forallb whole (n_rx s) = true /\
  n_delivered s ++ n_q s ++ fly_list s ++ n_out s ++ n_rx s = n_sent s.

Lemma NInvM_mid s : NInvM s <->
  n_acc s = [] /\ forallb whole (n_rx s) = true /\ n_delivered s ++ n_mid s ++ n_rx s = n_sent s.
Proof. unfold NInvM, n_mid. rewrite <- !app_assoc. reflexivity. Qed.

Lemma n_step_msgs s e :
  (match e with NSend b => whole b = true | _ => True end) -> NInvM s -> NInvM (nstep s e).
Proof.
  intros Hw. rewrite !NInvM_mid. intros (Ha & Hrx & H).
  destruct (n_step_moves s e) as [-> -> -> -> -> | b -> -> -> -> -> -> | taken grouped -> -> Hg Ht -> | x -> Hm -> -> ->].
  - auto.
  - split; [exact Ha|]. split; [rewrite forallb_app, Hrx; cbn; now rewrite Hw|].
    rewrite <- H, <- !app_assoc. reflexivity.
  - (* whole messages and an empty accumulator: regroup hands the batches on as they are *)
    rewrite Ht, forallb_app in Hrx. apply andb_prop in Hrx as [Htk Hrx].
    rewrite Ha, regroup_whole in Hg by exact Htk. injection Hg as <- <-.
    split; [reflexivity|]. split; [exact Hrx|]. rewrite <- H, Ht, <- !app_assoc. reflexivity.
  - rewrite Hm in H. split; [exact Ha|]. split; [exact Hrx|]. rewrite <- H, <- !app_assoc. reflexivity.
Qed.

Lemma n_run_msgs : forall evs s0, sends_whole evs = true -> NInvM s0 -> NInvM (fold_left nstep evs s0).
Proof.
  induction evs as [|e evs IH]; intros s0 Hw H; cbn [fold_left]; [exact H|].
  assert (Hw' : match e with NSend b => whole b = true | _ => True end /\ sends_whole evs = true).
  { destruct e; cbn in Hw; auto. apply andb_prop, Hw. }
  apply IH; [tauto | apply n_step_msgs; tauto].
Qed.

End Run.
