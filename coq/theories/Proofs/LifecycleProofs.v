(* Proofs about Model/Lifecycle.v (C16): the WaitGroup counts the guards (`LInv`, kept by every actor event), and
   the composition with WaitGroup::wait is the lifecycle model beside a run of Model/WgWait.v's waiter that sees
   the same count (`c_run_view`), so the theorems of WgWaitProofs.v apply to Context::term. *)
From RZ Require Import Base.Prelude Model.WgWait Proofs.WgWaitProofs Model.Lifecycle.

Lemma filter_set_nth {A} (f : A -> bool) : forall (l : list A) i x y,
  nth_error l i = Some y ->
  length (filter f (set_nth i x l)) + (if f y then 1 else 0) = length (filter f l) + (if f x then 1 else 0).
Proof.
  induction l as [|a l IH]; intros i x y H; [destruct i; discriminate|].
  destruct i as [|i]; cbn [nth_error set_nth filter] in *.
  - injection H as ->. destruct (f x), (f y); cbn [length]; lia.
  - specialize (IH i x y H). destruct (f a); cbn [length]; lia.
Qed.

Lemma filter_snoc {A} (f : A -> bool) l x :
  length (filter f (l ++ [x])) = length (filter f l) + (if f x then 1 else 0).
Proof. rewrite filter_app, app_length. cbn. destruct (f x); reflexivity. Qed.

Lemma guarded_set_actor s i a y : actor s i = Some y ->
  guarded (set_actor s i a) + (if is_guarded y then 1 else 0) = guarded s + (if is_guarded a then 1 else 0).
Proof. apply filter_set_nth. Qed.

Lemma guard_drop_stopped s i w er : length (l_stopped (guard_drop s i w er)) = S (length (l_stopped s)).
Proof. unfold guard_drop. destruct (l_count s); cbn [l_stopped]; rewrite app_length, Nat.add_comm; reflexivity. Qed.

Lemma guard_drop_guarded s i w er : actor s i = Some (ARunning w er) -> S (guarded (guard_drop s i w er)) = guarded s.
Proof.
  intros E. pose proof (guarded_set_actor s i AGone _ E) as G. cbn [is_guarded] in G.
  replace (guarded (guard_drop s i w er)) with (guarded (set_actor s i AGone)); [lia|].
  unfold guard_drop. destruct (l_count s); reflexivity.
Qed.

(* the invariant: the WaitGroup counts exactly the actors that hold a guard, and the zero-count branch of
   publish_actor_stopping is never taken *)
Definition LInv (s : lstate) : Prop := l_count s = guarded s /\ l_underflow s = 0.

(* a guard that is dropped was counted, so its done() finds the count above zero *)
Lemma linv_guard_drop s i w er : actor s i = Some (ARunning w er) -> LInv s -> LInv (guard_drop s i w er).
Proof.
  intros E [Hc Hu]. pose proof (guard_drop_guarded s i w er E) as G. revert G Hc. unfold LInv, guard_drop.
  destruct (l_count s) as [|k]; [lia|]. cbn [l_count l_underflow]. intros G Hc. split; [lia|exact Hu].
Qed.

Lemma linv_step s e : LInv s -> LInv (l_step s e).
Proof.
  intros HI. pose proof HI as [Hc Hu]. destruct e as [|i|i|i|i|i|i]; cbn [l_step];
    try (destruct (actor s i) as [[|w er|]|] eqn:E; try exact HI).
  - (* LSpawn: the new task holds no guard yet *)
    split; [|exact Hu]. cbn [l_count]. rewrite Hc. unfold guarded, count_if. cbn [l_actors].
    rewrite filter_snoc. apply plus_n_O.
  - (* LStart: one guard more, and add(1); the actors are those of set_actor *)
    split; [|exact Hu]. cbn [l_count]. change (guarded _) with (guarded (set_actor s i (ARunning false false))).
    pose proof (guarded_set_actor s i (ARunning false false) _ E) as G. cbn [is_guarded] in G. lia.
  - (* LWaive *)
    split; [|exact Hu]. pose proof (guarded_set_actor s i (ARunning true er) _ E) as G. cbn [is_guarded] in G.
    cbn [set_actor l_count]. lia.
  - (* LSetErr *)
    split; [|exact Hu]. pose proof (guarded_set_actor s i (ARunning w true) _ E) as G. cbn [is_guarded] in G.
    cbn [set_actor l_count]. lia.
  - (* LExit *)
    exact (linv_guard_drop s i w er E HI).
  - (* LAbort before the first poll: there was no guard *)
    split; [|exact Hu]. pose proof (guarded_set_actor s i AGone _ E) as G. cbn [is_guarded] in G.
    cbn [set_actor l_count]. lia.
  - (* LAbort at an await *)
    exact (linv_guard_drop s i w er E HI).
  - (* LPanic *)
    exact (linv_guard_drop s i w er E HI).
Qed.

Lemma linv_run evs : LInv (l_run evs).
Proof. unfold l_run. apply fold_left_inv; [exact linv_step | split; reflexivity]. Qed.

Lemma live_split s : live s = guarded s + unstarted s.
Proof.
  unfold live, guarded, unstarted, count_if. induction (l_actors s) as [|a l IH]; [reflexivity|].
  cbn [filter]. destruct a; cbn [is_live is_guarded is_spawned length]; lia.
Qed.

(* the actors whose guard was created: it is still held, or its drop was published.  Every event but a first
   poll keeps this number (`stopped_step`): each exit path publishes one ActorStopping per guard *)
Definition started (evs : list lev) (s : lstate) : nat := guarded s + length (l_stopped s).

Lemma stopped_step s e :
  length (l_stopped (l_step s e)) + guarded (l_step s e) + (match e with LStart i => match actor s i with Some ASpawned => 0 | _ => 1 end | _ => 1 end)
  = length (l_stopped s) + guarded s + 1.
Proof.
  destruct e as [|i|i|i|i|i|i]; cbn [l_step]; try (destruct (actor s i) as [[|w er|]|] eqn:E; try reflexivity).
  - (* LSpawn *)
    unfold guarded, count_if. cbn [l_actors l_stopped]. rewrite filter_snoc. cbn [is_guarded]. lia.
  - (* LStart: the one event that adds a guard; the actors are those of set_actor *)
    change (guarded _) with (guarded (set_actor s i (ARunning false false))) at 1.
    pose proof (guarded_set_actor s i (ARunning false false) _ E) as G. cbn [is_guarded] in G. cbn [l_stopped]. lia.
  - (* LWaive *)
    pose proof (guarded_set_actor s i (ARunning true er) _ E) as G. cbn [is_guarded] in G.
    cbn [set_actor l_stopped]. lia.
  - (* LSetErr *)
    pose proof (guarded_set_actor s i (ARunning w true) _ E) as G. cbn [is_guarded] in G.
    cbn [set_actor l_stopped]. lia.
  - (* LExit: the dropped guard is published *)
    rewrite guard_drop_stopped, <- (guard_drop_guarded s i w er E). lia.
  - (* LAbort before the first poll *)
    pose proof (guarded_set_actor s i AGone _ E) as G. cbn [is_guarded] in G.
    cbn [set_actor l_stopped]. lia.
  - (* LAbort at an await *)
    rewrite guard_drop_stopped, <- (guard_drop_guarded s i w er E). lia.
  - (* LPanic *)
    rewrite guard_drop_stopped, <- (guard_drop_guarded s i w er E). lia.
Qed.

(* the schedule of WgWait.v that a schedule of the composition is, seen from the waiter *)
Fixpoint proj (ls : lstate) (xs : list csch) : list gsch :=
  match xs with
  | [] => []
  | CA e :: r => map GE (wg_ops ls e) ++ proj (l_step ls e) r
  | CN :: r => GE ENotify :: proj ls r
  | CW :: r => GW :: proj ls r
  end.

Lemma grun_app a b s : grun (a ++ b) s = grun b (grun a s).
Proof. unfold grun. apply fold_left_app. Qed.

Lemma grun_map_ge ops s : grun (map GE ops) s = fold_left gestep ops s.
Proof. revert s. induction ops as [|o ops IH]; intros s; [reflexivity|]. cbn. apply IH. Qed.

Lemma gsstep_wait_count s : g_count (gsstep s GW) = g_count s.
Proof. cbn. unfold gstep. destruct (g_pc s); cbn; auto. destruct (g_calls s =? seen); auto. Qed.

(* the add() / done() calls of an actor event move the waiter's view of the count as the event moves the count *)
Lemma wg_ops_count ls e gs :
  g_count gs = l_count ls -> g_count (fold_left gestep (wg_ops ls e) gs) = l_count (l_step ls e).
Proof.
  intros Hc. destruct e as [|i|i|i|i|i|i]; cbn [wg_ops l_step fold_left]; try exact Hc; unfold actor;
    destruct (nth_error (l_actors ls) i) as [[|w e|]|]; cbn [fold_left set_actor l_count]; try exact Hc;
    try (cbn; lia);
    unfold guard_drop; destruct (l_count ls) eqn:E; cbn [fold_left gestep l_count]; try exact Hc;
    rewrite Hc; cbn; reflexivity.
Qed.

(* the composition is the lifecycle model beside a run of the waiter, and the two counts agree *)
Lemma c_run_sim xs : forall ls gs, LInv ls -> g_count gs = l_count ls ->
  let '(ls', gs') := fold_left c_step xs (ls, gs) in
  LInv ls' /\ gs' = grun (proj ls xs) gs /\ g_count gs' = l_count ls'.
Proof.
  induction xs as [|x xs IH]; intros ls gs HI Hc; [cbn; auto|].
  cbn [fold_left c_step]. destruct x as [e| |]; cbn [proj app].
  - specialize (IH _ _ (linv_step ls e HI) (wg_ops_count ls e gs Hc)). destruct (fold_left c_step xs _) as [ls' gs'].
    rewrite grun_app, grun_map_ge. exact IH.
  - apply IH; [exact HI|]. cbn. destruct (g_pend gs); exact Hc.
  - apply IH; [exact HI|]. rewrite <- Hc. apply gsstep_wait_count.
Qed.

(* so at the end of every schedule the waiter is a run of the repaired wait() that sees the guard count *)
Lemma c_run_view xs :
  let '(ls, gs) := c_run xs in
  g_count gs = guarded ls /\ exists ys, gs = grun ys (g0 true).
Proof.
  unfold c_run. pose proof (c_run_sim xs l0 (g0 true) (linv_run []) eq_refl) as H.
  destruct (fold_left c_step xs (l0, g0 true)) as [ls gs]. destruct H as ([Hl _] & Hg & Hc).
  split; [congruence | eauto].
Qed.

(* the classification is not vacuous: a row whose waker is WNobody would stay blocked (the REQ send row was
   such a row before the Stop arm called deactivate()) *)
Lemma blocked_nobody_stays : blocked_at_close (R TReq USend FRunning AWaitConn WNobody) = StaysBlocked.
Proof. reflexivity. Qed.
