(* Proofs about the option layer (Model/Options.v): what a set_option call means for the values the other models
   read, for EVERY byte string handed to set_option; framing (nothing else changes); get-after-set. *)
From RZ Require Import Base.Prelude Model.Engine Model.Options.
Local Open Scope Z_scope.

Definition i32r (v : Z) : Prop := -2147483648 <= v <= 2147483647.
Definition i64r (v : Z) : Prop := -9223372036854775808 <= v <= 9223372036854775807.

Lemma le_val_enc n u : 0 <= u -> le_val (le_enc n u) = u mod 256 ^ Z.of_nat n.
Proof.
  revert u. induction n as [|n IH]; intros u Hu.
  - cbn. rewrite Z.mod_1_r. reflexivity.
  - cbn [le_enc le_val]. rewrite IH by (apply Z.div_pos; lia).
    rewrite Z2N.id by (apply Z.mod_pos_bound; lia).
    rewrite Nat2Z.inj_succ, Z.pow_succ_r by lia.
    rewrite (Z.rem_mul_r u 256 (256 ^ Z.of_nat n)) by (try apply Z.pow_pos_nonneg; lia). lia.
Qed.
Lemma le_enc_length n u : length (le_enc n u) = n.
Proof. revert u; induction n as [|n IH]; intros u; cbn; [reflexivity | now rewrite IH]. Qed.

(* wrap_signed for any width; the moduli stay symbolic (h is half the modulus), so lia never sees 2^64 *)
Lemma pow2_half bits : 0 < bits -> 2 ^ bits = 2 * 2 ^ (bits - 1).
Proof. intros H. rewrite <- Z.pow_succ_r by lia. f_equal. lia. Qed.
Lemma wrap_signed_range bits u : 0 < bits -> - 2 ^ (bits - 1) <= wrap_signed bits u < 2 ^ (bits - 1).
Proof.
  intros Hb. unfold wrap_signed. rewrite (pow2_half bits Hb).
  assert (Hh : 0 < 2 ^ (bits - 1)) by (apply Z.pow_pos_nonneg; lia). set (h := 2 ^ (bits - 1)) in *.
  pose proof (Z.mod_pos_bound u (2 * h) ltac:(lia)) as Hm. cbv zeta. destruct (Z.ltb_spec (u mod (2 * h)) h); lia.
Qed.
Lemma wrap_signed_id bits v : 0 < bits -> - 2 ^ (bits - 1) <= v < 2 ^ (bits - 1) -> wrap_signed bits v = v.
Proof.
  intros Hb. unfold wrap_signed. rewrite (pow2_half bits Hb). set (h := 2 ^ (bits - 1)). intros Hv. cbv zeta.
  destruct (Z.leb_spec 0 v).
  - rewrite Z.mod_small by lia. destruct (Z.ltb_spec v h); lia.
  - rewrite <- (Z.mod_add v 1), Z.mod_small by lia. destruct (Z.ltb_spec (v + 1 * (2 * h)) h); lia.
Qed.
Lemma wrap_signed_mod bits v :
  0 < bits -> - 2 ^ (bits - 1) <= v < 2 ^ (bits - 1) -> wrap_signed bits (v mod 2 ^ bits) = v.
Proof.
  intros Hb Hv. unfold wrap_signed. rewrite Z.mod_mod by (apply Z.pow_nonzero; lia). exact (wrap_signed_id bits v Hb Hv).
Qed.

Lemma i32r_pow v : i32r v <-> - 2 ^ (32 - 1) <= v < 2 ^ (32 - 1).
Proof. unfold i32r. change (2 ^ (32 - 1)) with 2147483648. lia. Qed.
Lemma i64r_pow v : i64r v <-> - 2 ^ (64 - 1) <= v < 2 ^ (64 - 1).
Proof. unfold i64r. change (2 ^ (64 - 1)) with 9223372036854775808. lia. Qed.

Lemma as_i32_id v : i32r v -> as_i32 v = v.
Proof. intros H. apply wrap_signed_id; [reflexivity | now apply i32r_pow]. Qed.

Lemma i32_roundtrip v : i32r v -> i32_of (i32_bytes v) = Some v.
Proof.
  intros H. unfold i32_of, i32_bytes. rewrite le_enc_length. cbn [Nat.eqb].
  rewrite le_val_enc by (apply Z.mod_pos_bound; reflexivity).
  change (256 ^ Z.of_nat 4) with (2 ^ 32). rewrite Z.mod_mod by discriminate.
  now rewrite wrap_signed_mod by (reflexivity || now apply i32r_pow).
Qed.
Lemma i64_roundtrip v : i64r v -> i64_of (i64_bytes v) = Some v.
Proof.
  intros H. unfold i64_of, i64_bytes. rewrite le_enc_length. cbn [Nat.eqb].
  rewrite le_val_enc by (apply Z.mod_pos_bound; reflexivity).
  change (256 ^ Z.of_nat 8) with (2 ^ 64). rewrite Z.mod_mod by discriminate.
  now rewrite wrap_signed_mod by (reflexivity || now apply i64r_pow).
Qed.
Lemma i32_of_range b v : i32_of b = Some v -> i32r v.
Proof.
  unfold i32_of. destruct (Nat.eqb _ _); [|discriminate]. intros [= <-]. now apply i32r_pow, wrap_signed_range.
Qed.
Lemma i64_of_range b v : i64_of b = Some v -> i64r v.
Proof.
  unfold i64_of. destruct (Nat.eqb _ _); [|discriminate]. intros [= <-]. now apply i64r_pow, wrap_signed_range.
Qed.
Lemma i32_of_length b v : i32_of b = Some v -> length b = 4%nat.
Proof. unfold i32_of. destruct (Nat.eqb_spec (length b) 4); [auto|discriminate]. Qed.
Lemma i32_of_none b : i32_of b = None <-> length b <> 4%nat.
Proof. unfold i32_of. destruct (Nat.eqb_spec (length b) 4); split; intros; try discriminate; try contradiction; auto. Qed.

Lemma sat_i32_id v : 0 <= v <= 2147483647 -> sat_i32 v = v.
Proof. unfold sat_i32, i32_max. intros H. now rewrite (proj2 (Z.leb_le v 2147483647)). Qed.

Lemma field_beq_refl f : field_beq f f = true.
Proof. destruct f; reflexivity. Qed.
Lemma oset_same o f v : oset o f v f = v.
Proof. unfold oset. now rewrite field_beq_refl. Qed.
Lemma oset_other o f v g : g <> f -> oset o f v g = o g.
Proof.
  unfold oset. intros H. destruct (field_beq g f) eqn:E; [|reflexivity]. now apply internal_field_dec_bl in E.
Qed.
Lemma fold_oset_other (l : list field) o g :
  ~ In g l -> fold_left (fun o' f => oset o' f (VB true)) l o g = o g.
Proof.
  revert o. induction l as [|f l IH]; intros o H; cbn [fold_left]; [reflexivity|].
  rewrite IH by (intros Hi; apply H; now right). apply oset_other. intros ->. apply H. now left.
Qed.
Lemma fold_oset_in (l : list field) o g :
  In g l -> fold_left (fun o' f => oset o' f (VB true)) l o g = VB true.
Proof.
  revert o. induction l as [|f l IH]; intros o H; cbn [fold_left]; [destruct H|].
  destruct (in_dec field_eq_dec g l) as [Hi|Hn]; [now apply IH|].
  rewrite fold_oset_other by assumption. destruct H as [->|H]; [apply oset_same | contradiction].
Qed.

Lemma apply_opt_rule o id b r : find_rule apply_rules id = Some r ->
  apply_opt o id b = match run_pk (r_pk r) id b with
                     | inl v => inl (fold_left (fun o' f => oset o' f (VB true)) (r_also r) (oset o (r_field r) v))
                     | inr e => inr e
                     end.
Proof. intros H. unfold apply_opt, apply_with. now rewrite H. Qed.
Lemma retrieve_opt_rule o id k f :
  find (fun '(i, _, _) => i =? id) get_rules = Some (id, k, f) -> retrieve_opt o id = run_gk k (o f).
Proof. intros H. unfold retrieve_opt, retrieve_with. now rewrite H. Qed.

Theorem apply_sets_field o id b o' r :
  apply_opt o id b = inl o' -> find_rule apply_rules id = Some r -> ~ In (r_field r) (r_also r) ->
  run_pk (r_pk r) id b = inl (o' (r_field r)).
Proof.
  intros H Hr Hn. rewrite (apply_opt_rule o id b r Hr) in H. destruct (run_pk (r_pk r) id b); [|discriminate].
  injection H as <-. rewrite fold_oset_other by assumption. now rewrite oset_same.
Qed.
Lemma apply_sets_flags o id b o' r g :
  apply_opt o id b = inl o' -> find_rule apply_rules id = Some r -> In g (r_also r) -> o' g = VB true.
Proof.
  intros H Hr Hg. rewrite (apply_opt_rule o id b r Hr) in H. destruct (run_pk (r_pk r) id b); [|discriminate].
  injection H as <-. now apply fold_oset_in.
Qed.
(* a flag that is on stays on through a successful call, provided no rule has it as its own field: the flag lists
   only ever write `true` *)
Lemma fold_also_keeps_true (l : list field) o g : o g = VB true ->
  fold_left (fun o' f => oset o' f (VB true)) l o g = VB true.
Proof. intros H. destruct (in_dec field_eq_dec g l); [now apply fold_oset_in | now rewrite fold_oset_other]. Qed.
Lemma apply_keeps_flag o id b o' g :
  apply_opt o id b = inl o' -> forallb (fun r => negb (field_beq (r_field r) g)) apply_rules = true ->
  o g = VB true -> o' g = VB true.
Proof.
  intros H A Hg. unfold apply_opt, apply_with in H.
  destruct (find_rule apply_rules id) as [r|] eqn:Hr; [|destruct (existsb _ _); discriminate].
  destruct (run_pk (r_pk r) id b); [|discriminate]. injection H as <-.
  apply find_some in Hr as [Hin _]. rewrite forallb_forall in A. specialize (A r Hin).
  apply fold_also_keeps_true. rewrite oset_other; [exact Hg|]. intros ->. now rewrite field_beq_refl in A.
Qed.
(* no rule lists its own field among the flags *)
Lemma rules_also_disjoint : forallb (fun r => negb (existsb (field_beq (r_field r)) (r_also r))) apply_rules = true.
Proof. vm_compute. reflexivity. Qed.
Theorem apply_all_ok_steps o id b o' : apply_opt o id b = inl o' -> apply_all o [(id, b)] = (o', [None]).
Proof. intros H. cbn. now rewrite H. Qed.
(* ids outside both tables are refused as unknown, listed pattern ids as unsupported; neither touches the config *)
Theorem apply_unknown_id o id b :
  find_rule apply_rules id = None ->
  apply_opt o id b = inr (if existsb (Z.eqb id) apply_unsupported then EUnsupported id else EInvalidOption id).
Proof. intros H. unfold apply_opt, apply_with. rewrite H. destruct (existsb _ _); reflexivity. Qed.

(* `x` is the value that means "off" / "infinite" *)
Definition off_at (x v : Z) : option Z := if v =? x then None else Some v.

(* each integer parser accepts from a threshold upwards and refuses below it *)
Lemma parse_timeout_spec id v : parse_timeout v id = if -1 <=? v then POk (off_at (-1) v) else PErr id.
Proof.
  unfold parse_timeout, off_at. destruct (Z.eqb_spec v (-1)) as [->|]; [reflexivity|].
  destruct (Z.eqb_spec v 0) as [->|]; [reflexivity|]. destruct (Z.leb_spec 1 v), (Z.leb_spec (-1) v); (reflexivity || lia).
Qed.
Lemma parse_linger_spec v : parse_linger v = if -1 <=? v then POk (off_at (-1) v) else PErr LINGER.
Proof.
  unfold parse_linger, off_at. destruct (Z.eqb_spec v (-1)) as [->|]; [reflexivity|].
  destruct (Z.leb_spec 0 v), (Z.leb_spec (-1) v); (reflexivity || lia).
Qed.
Lemma parse_heartbeat_spec id v : parse_heartbeat v id = if 0 <=? v then POk (off_at 0 v) else PErr id.
Proof.
  unfold parse_heartbeat, off_at. destruct (Z.eqb_spec v 0) as [->|]; [reflexivity|].
  destruct (Z.leb_spec 1 v), (Z.leb_spec 0 v); (reflexivity || lia).
Qed.
Lemma parse_reconnect_ivl_spec v :
  parse_reconnect_ivl v = if -1 <=? v then POk (if (v =? -1) || (v =? 0) then None else Some v) else PErr RECONNECT_IVL.
Proof.
  unfold parse_reconnect_ivl. destruct (Z.eqb_spec v (-1)) as [->|]; [reflexivity|].
  destruct (Z.eqb_spec v 0) as [->|]; [reflexivity|]. destruct (Z.leb_spec 1 v), (Z.leb_spec (-1) v); (reflexivity || lia).
Qed.
Lemma parse_reconnect_ivl_max_spec v :
  parse_reconnect_ivl_max v = if 0 <=? v then POk (Some v) else PErr RECONNECT_IVL_MAX.
Proof.
  unfold parse_reconnect_ivl_max. destruct (Z.eqb_spec v 0) as [->|]; [reflexivity|].
  destruct (Z.leb_spec 1 v), (Z.leb_spec 0 v); (reflexivity || lia).
Qed.

(* What set_option does on an option of this kind, for every byte string: a 4-byte value v >= lo is stored in field f
   as `val v` and nothing else changes, a smaller one is refused under the option's own id, any other length under
   `lenerr`.  The theorems about SNDTIMEO, RCVTIMEO, LINGER, the heartbeat and handshake intervals and the
   reconnect intervals are this equation read in one direction or the other. *)
Definition threshold_opt (id : Z) (f : field) (lenerr lo : Z) (val : Z -> option Z) : Prop :=
  forall o b, apply_opt o id b =
    match i32_of b with
    | None => inr (EVal lenerr)
    | Some v => if lo <=? v then inl (oset o f (VOZ (val v))) else inr (EVal id)
    end.

Lemma threshold_intro id k f lenerr lo val (parse : Z -> pres) :
  find_rule apply_rules id = Some (R id k f []) ->
  (forall b, run_pk k id b = with_i32 b lenerr (fun v => of_pres (parse v))) ->
  (forall v, parse v = if lo <=? v then POk (val v) else PErr id) ->
  threshold_opt id f lenerr lo val.
Proof.
  intros HR HK HP o b. rewrite (apply_opt_rule o id b _ HR). cbn [R r_pk r_field r_also fold_left].
  rewrite HK. unfold with_i32. destruct (i32_of b) as [v|]; [|reflexivity]. rewrite HP. now destruct (lo <=? v).
Qed.

Lemma sndtimeo_opt : threshold_opt SNDTIMEO F_sndtimeo SNDTIMEO (-1) (off_at (-1)).
Proof. eapply threshold_intro; [reflexivity | intros b; reflexivity | apply parse_timeout_spec]. Qed.
Lemma rcvtimeo_opt : threshold_opt RCVTIMEO F_rcvtimeo RCVTIMEO (-1) (off_at (-1)).
Proof. eapply threshold_intro; [reflexivity | intros b; reflexivity | apply parse_timeout_spec]. Qed.
Lemma linger_opt : threshold_opt LINGER F_linger 0 (-1) (off_at (-1)).
Proof. eapply threshold_intro; [reflexivity | intros b; reflexivity | apply parse_linger_spec]. Qed.
Lemma heartbeat_ivl_opt : threshold_opt HEARTBEAT_IVL F_heartbeat_ivl HEARTBEAT_IVL 0 (off_at 0).
Proof. eapply threshold_intro; [reflexivity | intros b; reflexivity | apply parse_heartbeat_spec]. Qed.
Lemma heartbeat_timeout_opt : threshold_opt HEARTBEAT_TIMEOUT F_heartbeat_timeout HEARTBEAT_TIMEOUT 0 (off_at 0).
Proof. eapply threshold_intro; [reflexivity | intros b; reflexivity | apply parse_heartbeat_spec]. Qed.
(* parse_handshake is parse_heartbeat under another name *)
Lemma handshake_ivl_opt : threshold_opt HANDSHAKE_IVL F_handshake_ivl HANDSHAKE_IVL 0 (off_at 0).
Proof. eapply threshold_intro; [reflexivity | intros b; reflexivity | apply parse_heartbeat_spec]. Qed.
Lemma reconnect_ivl_opt :
  threshold_opt RECONNECT_IVL F_reconnect_ivl 0 (-1) (fun v => if (v =? -1) || (v =? 0) then None else Some v).
Proof. eapply threshold_intro; [reflexivity | intros b; reflexivity | apply parse_reconnect_ivl_spec]. Qed.
Lemma reconnect_ivl_max_opt : threshold_opt RECONNECT_IVL_MAX F_reconnect_ivl_max 0 0 Some.
Proof. eapply threshold_intro; [reflexivity | intros b; reflexivity | apply parse_reconnect_ivl_max_spec]. Qed.

Definition timeo_decode (v : Z) : option N := if v =? -1 then None else Some (Z.to_N v).
Definition ivl_decode (v : Z) : option N := if v =? 0 then None else Some (Z.to_N v).

(* timeo_decode is the case x = -1, ivl_decode the case x = 0 *)
Lemma as_timeo_off_at x v : as_timeo (VOZ (off_at x v)) = if v =? x then None else Some (Z.to_N v).
Proof. unfold off_at. now destruct (v =? x). Qed.

Section Threshold.
  Context {id : Z} {f : field} {lenerr lo : Z} {val : Z -> option Z} (H : threshold_opt id f lenerr lo val).

  Lemma set_semantics o b :
    match apply_opt o id b with
    | inl o' => exists v, i32_of b = Some v /\ lo <= v /\ o' f = VOZ (val v) /\ (forall g, g <> f -> o' g = o g)
    | inr e => (e = EVal lenerr /\ i32_of b = None) \/ (e = EVal id /\ exists v, i32_of b = Some v /\ v < lo)
    end.
  Proof.
    rewrite H. destruct (i32_of b) as [v|]; [|now left]. destruct (Z.leb_spec lo v).
    - exists v. repeat split; [assumption | apply oset_same | intros g Hg; now apply oset_other].
    - right. split; [reflexivity|]. now exists v.
  Qed.

  Lemma set_accepts o v : lo <= v <= 2147483647 -> i32r v ->
    exists o', apply_opt o id (i32_bytes v) = inl o' /\ o' f = VOZ (val v).
  Proof.
    intros Hv Hr. rewrite H, i32_roundtrip, (proj2 (Z.leb_le lo v)) by (exact Hr || apply Hv).
    eexists. split; [reflexivity | apply oset_same].
  Qed.

  (* get after set: the value read back is the value written, when the get rule's encoder inverts `val` *)
  Lemma get_after_set o v k : find (fun '(i, _, _) => i =? id) get_rules = Some (id, k, f) ->
    lo <= v <= 2147483647 -> i32r v -> run_gk k (VOZ (val v)) = GOk (i32_bytes v) ->
    exists o', apply_opt o id (i32_bytes v) = inl o' /\ retrieve_opt o' id = GOk (i32_bytes v).
  Proof.
    intros HG Hv Hr Hk. destruct (set_accepts o v Hv Hr) as (o' & Ha & Hf). exists o'. split; [exact Ha|].
    now rewrite (retrieve_opt_rule o' id k f HG), Hf.
  Qed.
End Threshold.

(* the options where the threshold is also the "off" value and a wrong length is reported under the option's id *)
Lemma off_semantics id f x : threshold_opt id f id x (off_at x) -> forall o b,
  match apply_opt o id b with
  | inl o' => exists v, i32_of b = Some v /\ x <= v /\ as_timeo (o' f) = (if v =? x then None else Some (Z.to_N v))
                        /\ (forall g, g <> f -> o' g = o g)
  | inr e => e = EVal id /\ (i32_of b = None \/ exists v, i32_of b = Some v /\ v < x)
  end.
Proof.
  intros H o b. pose proof (set_semantics H o b) as P. destruct (apply_opt o id b) as [o'|e]; [|tauto].
  destruct P as (v & Hb & Hv & Hf & Hfr). exists v. rewrite Hf. repeat split; auto. apply as_timeo_off_at.
Qed.

Lemma run_gk_mssat v : -1 <= v <= 2147483647 -> run_gk GMsSat (VOZ (off_at (-1) v)) = GOk (i32_bytes v).
Proof.
  intros Hv. cbn [run_gk]. unfold off_at. destruct (Z.eqb_spec v (-1)) as [->|]; [reflexivity|].
  now rewrite sat_i32_id by lia.
Qed.
Lemma run_gk_mstrunc v : 0 <= v <= 2147483647 -> run_gk GMsTrunc (VOZ (off_at 0 v)) = GOk (i32_bytes v).
Proof.
  intros Hv. cbn [run_gk]. unfold off_at. destruct (Z.eqb_spec v 0) as [->|]; [reflexivity|].
  now rewrite as_i32_id by (unfold i32r; lia).
Qed.

(* sizes (SNDHWM, RCVHWM, ...): max(v, lo), never refused for a 4-byte value *)
Lemma i32max_apply o id b f lo : find_rule apply_rules id = Some (R id (KI32Max lo false) f []) ->
  apply_opt o id b = match i32_of b with Some v => inl (oset o f (VZ (Z.max v lo))) | None => inr (EVal 0) end.
Proof.
  intros HR. rewrite (apply_opt_rule o id b _ HR). cbn [R r_pk r_field r_also fold_left run_pk]. unfold with_i32.
  now destruct (i32_of b).
Qed.
Lemma hwm_semantics o id b f : find_rule apply_rules id = Some (R id (KI32Max 0 false) f []) ->
  match apply_opt o id b with
  | inl o' => exists v, i32_of b = Some v /\ usize_of (o' f) = Z.to_N (Z.max v 0) /\ (forall g, g <> f -> o' g = o g)
  | inr e => e = EVal 0 /\ i32_of b = None
  end.
Proof.
  intros HR. rewrite (i32max_apply o id b f 0 HR). destruct (i32_of b) as [v|]; [|auto].
  exists v. rewrite oset_same. repeat split. intros g Hg. now apply oset_other.
Qed.
(* a negative mark is clamped, so it reads back as 0 *)
Lemma hwm_get_after_set o id f v w : find_rule apply_rules id = Some (R id (KI32Max 0 false) f []) ->
  find (fun '(i, _, _) => i =? id) get_rules = Some (id, GUsizeI32, f) -> i32r v -> Z.max v 0 = w ->
  exists o', apply_opt o id (i32_bytes v) = inl o' /\ retrieve_opt o' id = GOk (i32_bytes w).
Proof.
  intros HR HG Hr <-. rewrite (i32max_apply o id _ f 0 HR), i32_roundtrip by exact Hr. eexists. split; [reflexivity|].
  rewrite (retrieve_opt_rule _ id _ f HG), oset_same. cbn [run_gk]. now rewrite as_i32_id by (unfold i32r in *; lia).
Qed.

(* MAXMSGSIZE: an 8-byte value, -1 unlimited, n >= 0 the limit; anything below -1 refused *)
Lemma maxmsgsize_apply o b :
  apply_opt o MAXMSGSIZE b =
  match i64_of b with
  | None => inr (EVal MAXMSGSIZE)
  | Some v => if v <? -1 then inr (EVal MAXMSGSIZE) else inl (oset o F_maxmsgsize (VZ v))
  end.
Proof.
  rewrite (apply_opt_rule o MAXMSGSIZE b _ eq_refl). cbn [R r_pk r_field r_also fold_left run_pk].
  destruct (i64_of b) as [v|]; [|reflexivity]. unfold parse_maxmsgsize. now destruct (v <? -1).
Qed.

(* every get rule reads a field of the type its encoder expects (run_gk's catch-all is dead) *)
Definition gk_typed (k : gk) (v : oval) : bool :=
  match k, v with
  | (GOptUsizeI32 _ | GMsSat | GMsTrunc | GSecsTrunc), VOZ _ => true
  | (GUsizeI32 | GI32 | GI64), VZ _ => true
  | GBool, VB _ => true | GOptBool, VOB _ => true | GBytes, VOBy _ => true | GWriteOnly, _ => true
  | _, _ => false
  end.
Lemma get_rules_typed_default : forallb (fun '(_, k, f) => gk_typed k (default_opts f)) get_rules = true.
Proof. vm_compute. reflexivity. Qed.
