(* Model/Shutdown.v (property C15; `sys_close_reaches_finished` is also C16's).
   After initiate_core_shutdown the coordinator is Finished, or Lingering with the one deadline `dl_of l t0`, and
   every tick keeps it so (`CI`).  Hence a call finishes exactly when it sees every pipe empty or that deadline
   passed (`initiate_ph`, `check_ph`), and the three coord_* theorems are read off these two equations.
   With session and data path beside the coordinator, every step keeps `Reach`: the data path's history is intact
   while the session runs and that of a stopped session afterwards (`YInv`), the flags agree with each other and
   with the coordinator (`FlagsInv`), and under LINGER -1 the coordinator has not left Lingering over a live
   session's non-empty pipe (`drained`). *)
From RZ Require Import Base.Prelude Model.Codec Model.Engine Proofs.EngineProofs Model.Actor Proofs.ActorProofs
  Model.Batch Proofs.BatchProofs Model.Egress Model.IngressDriver Model.Pipeline Proofs.PipelineProofs Model.Shutdown.
Local Open Scope N_scope.

Lemma sphase_eqb_eq a b : sphase_eqb a b = true <-> a = b.
Proof. destruct a, b; cbn; split; intros H; try reflexivity; try discriminate. Qed.

Lemma sphase_eqb_refl a : sphase_eqb a a = true.
Proof. destruct a; reflexivity. Qed.

Lemma start_linger_ph l now c : c_ph (start_linger l now c) = c_ph c.
Proof.
  unfold start_linger. destruct (negb (sphase_eqb (c_ph c) SLingering)); [reflexivity|].
  destruct (_ && _); [reflexivity|]. destruct l as [|d]; [reflexivity|]. destruct d; reflexivity.
Qed.

Lemma finish_if_done_ph c pe now :
  c_ph (finish_if_done c pe now) = if linger_done c pe now then SFinished else c_ph c.
Proof. unfold finish_if_done. destruct (linger_done c pe now); reflexivity. Qed.

Lemma finish_if_done_dl c pe now : c_dl (finish_if_done c pe now) = c_dl c.
Proof.
  unfold finish_if_done, advance_to_cleaning. destruct (linger_done c pe now); [|reflexivity].
  destruct (sphase_eqb (c_ph c) SLingering); reflexivity.
Qed.

Lemma linger_done_lingering c pe now : linger_done c pe now = true -> c_ph c = SLingering.
Proof.
  unfold linger_done. destruct (sphase_eqb (c_ph c) SLingering) eqn:E; cbn; [|discriminate].
  intros _. apply sphase_eqb_eq. exact E.
Qed.

Lemma linger_done_eq c pe now : c_ph c = SLingering ->
  linger_done c pe now = pe || match c_dl c with Some dl => dl <=? now | None => false end.
Proof. intros Hp. unfold linger_done. rewrite Hp. destruct pe; reflexivity. Qed.

Lemma linger_done_inf c pe now :
  c_ph c = SLingering -> c_dl c = None -> linger_done c pe now = pe.
Proof. intros Hp Hd. rewrite linger_done_eq, Hd by exact Hp. apply orb_false_r. Qed.

(* phases only move forward *)
Lemma rank_finish_if_done c pe now : (rank (c_ph c) <= rank (c_ph (finish_if_done c pe now)))%nat.
Proof.
  rewrite finish_if_done_ph. destruct (linger_done c pe now) eqn:E; [|lia].
  apply linger_done_lingering in E. rewrite E. cbn. lia.
Qed.

Lemma rank_initiate l now now' pe c : (rank (c_ph c) <= rank (c_ph (initiate l now now' pe c)))%nat.
Proof.
  unfold initiate. destruct (sphase_eqb (c_ph c) SRunning) eqn:E; cbn [negb]; [|lia].
  apply sphase_eqb_eq in E. rewrite E.
  eapply Nat.le_trans; [|apply rank_finish_if_done]. rewrite start_linger_ph. cbn. lia.
Qed.

Lemma rank_check l now now' pe c : (rank (c_ph c) <= rank (c_ph (check_and_advance l now now' pe c)))%nat.
Proof.
  unfold check_and_advance. destruct (sphase_eqb (c_ph c) SLingering) eqn:E; cbn [negb]; [|lia].
  eapply Nat.le_trans; [|apply rank_finish_if_done].
  destruct (_ && _); [rewrite start_linger_ph|]; lia.
Qed.

Lemma check_not_lingering l now now' pe c : c_ph c <> SLingering -> check_and_advance l now now' pe c = c.
Proof.
  intros H. unfold check_and_advance. destruct (sphase_eqb (c_ph c) SLingering) eqn:E; [|reflexivity].
  apply sphase_eqb_eq in E. contradiction.
Qed.

Lemma initiate_not_running l now now' pe c : c_ph c <> SRunning -> initiate l now now' pe c = c.
Proof.
  intros H. unfold initiate. destruct (sphase_eqb (c_ph c) SRunning) eqn:E; [|reflexivity].
  apply sphase_eqb_eq in E. contradiction.
Qed.

Lemma run_ticks_cons l c t t' pe ts :
  run_ticks l c ((t, t', pe) :: ts) = run_ticks l (check_and_advance l t t' pe c) ts.
Proof. reflexivity. Qed.

Lemma run_ticks_app l c a b : run_ticks l c (a ++ b) = run_ticks l (run_ticks l c a) b.
Proof. unfold run_ticks. apply fold_left_app. Qed.

(* the deadline the code computes for LINGER = d at time t0 (LINGER 0: "now"; now + 0 = now) *)
Definition dl_of (l : linger) (t0 : N) : option N :=
  match l with LInf => None | LMs d => Some (t0 + d) end.

(* after initiate_core_shutdown on a running socket: Finished, or Lingering with exactly that deadline *)
Definition CI (l : linger) (t0 : N) (c : coord) : Prop :=
  c_ph c = SFinished \/ (c_ph c = SLingering /\ c_dl c = dl_of l t0).

Lemma start_linger_fresh l t0 :
  start_linger l t0 {| c_ph := SLingering; c_dl := None |} = {| c_ph := SLingering; c_dl := dl_of l t0 |}.
Proof.
  unfold start_linger. cbn. destruct l as [|d]; [reflexivity|]. destruct d; cbn; [|reflexivity].
  rewrite N.add_0_r. reflexivity.
Qed.

(* initiate_core_shutdown on a running socket: Lingering with that deadline, then the common tail *)
Lemma initiate_coord0 l t0 t0' pe :
  initiate l t0 t0' pe coord0 = finish_if_done {| c_ph := SLingering; c_dl := dl_of l t0 |} pe t0'.
Proof. unfold initiate, coord0, set_ph. cbn [c_ph c_dl sphase_eqb negb]. rewrite start_linger_fresh. reflexivity. Qed.

(* ... and a tick does not touch the deadline again: it is the common tail alone *)
Lemma check_lingering l t0 t t' pe c :
  c_ph c = SLingering -> c_dl c = dl_of l t0 -> check_and_advance l t t' pe c = finish_if_done c pe t'.
Proof.
  intros Hp Hd. unfold check_and_advance. rewrite Hp, Hd. cbn [sphase_eqb negb].
  destruct l as [|d]; [|reflexivity]. cbv zeta. f_equal.
  unfold start_linger. rewrite Hp, Hd. destruct c; cbn in *; subst; reflexivity.
Qed.

Lemma CI_finish l t0 c pe t : c_ph c = SLingering -> c_dl c = dl_of l t0 -> CI l t0 (finish_if_done c pe t).
Proof.
  intros Hp Hd. unfold CI. rewrite finish_if_done_ph, finish_if_done_dl. destruct (linger_done c pe t); auto.
Qed.

Lemma CI_initiate l t0 t0' pe : CI l t0 (initiate l t0 t0' pe coord0).
Proof. rewrite initiate_coord0. apply CI_finish; reflexivity. Qed.

Lemma CI_check l t0 t t' pe c : CI l t0 c -> CI l t0 (check_and_advance l t t' pe c).
Proof.
  intros [H|[Hp Hd]]; [rewrite check_not_lingering by congruence; left; exact H|].
  rewrite (check_lingering l t0) by assumption. apply CI_finish; assumption.
Qed.

Lemma CI_run l t0 ts : forall c, CI l t0 c -> CI l t0 (run_ticks l c ts).
Proof. apply fold_left_inv. intros c [[t t'] pe]. apply CI_check. Qed.

(* So, once close() has been called, initiate_core_shutdown and check_and_advance_linger alike finish exactly
   when they find every pipe empty or the deadline passed. *)
Lemma initiate_ph l t0 t0' pe :
  c_ph (initiate l t0 t0' pe coord0) =
  if pe || match dl_of l t0 with Some dl => dl <=? t0' | None => false end then SFinished else SLingering.
Proof. rewrite initiate_coord0, finish_if_done_ph, linger_done_eq; reflexivity. Qed.

Lemma check_ph l t0 t t' pe c : CI l t0 c ->
  c_ph (check_and_advance l t t' pe c) =
  if pe || match dl_of l t0 with Some dl => dl <=? t' | None => false end then SFinished else c_ph c.
Proof.
  intros [H|[Hp Hd]]; [rewrite check_not_lingering, H by congruence; destruct (_ || _); reflexivity|].
  rewrite (check_lingering l t0), finish_if_done_ph, linger_done_eq, Hd by assumption. reflexivity.
Qed.

(* the second clock read of a tick: the one the linger test compares with the deadline *)
Definition tk2 (tk : tick) : N := snd (fst tk).

(* the maintenance ticks are at most P apart (100 ms interval + the time one loop iteration takes) *)
Fixpoint spaced (P prev : N) (ts : list tick) : Prop :=
  match ts with
  | [] => True
  | tk :: r => tk2 tk <= prev + P /\ spaced P (tk2 tk) r
  end.

(* among ticks at most P apart, the first one at or after an instant B comes before B + P *)
Lemma first_late_tick P B : forall ts prev,
  prev < B -> spaced P prev ts -> Exists (fun tk => B <= tk2 tk) ts ->
  exists pre tk post, ts = pre ++ tk :: post /\ B <= tk2 tk < B + P.
Proof.
  induction ts as [|tk ts IH]; intros prev Hprev Hsp Hex; [inversion Hex|]. destruct Hsp as [Hle Hsp].
  destruct (N.le_gt_cases B (tk2 tk)) as [E|E].
  - exists [], tk, ts. split; [reflexivity | lia].
  - destruct (IH (tk2 tk) E Hsp) as (pre & tk' & post & -> & H); [inversion Hex; subst; [lia | assumption]|].
    exists (tk :: pre), tk', post. split; [reflexivity | exact H].
Qed.

Theorem coord_linger_bounds_close d P t0 t0' pe0 ts :
  t0 <= t0' -> spaced P t0' ts -> Exists (fun tk => t0 + d <= tk2 tk) ts ->
  let c0 := initiate (LMs d) t0 t0' pe0 coord0 in
  c_ph c0 = SFinished \/
  exists pre tk post, ts = pre ++ tk :: post /\ tk2 tk < t0 + d + P /\
    c_ph (run_ticks (LMs d) c0 (pre ++ [tk])) = SFinished.
Proof.
  intros _ Hsp Hex c0. subst c0.
  destruct (N.le_gt_cases (t0 + d) t0') as [Hlate|Hprev]; [left | right].
  - (* the deadline had passed by the time initiate looked: finished on the spot *)
    rewrite initiate_ph. cbn [dl_of]. rewrite (proj2 (N.leb_le _ _) Hlate), orb_true_r. reflexivity.
  - destruct (first_late_tick P _ ts t0' Hprev Hsp Hex) as (pre & [[t t'] pe] & post & -> & Hge & Hlt).
    exists pre, (t, t', pe), post. split; [reflexivity|]. split; [exact Hlt|].
    rewrite run_ticks_app, run_ticks_cons. cbn [run_ticks fold_left].
    rewrite (check_ph _ t0) by apply CI_run, CI_initiate.
    cbn [dl_of]. change (t0 + d <= t') in Hge. rewrite (proj2 (N.leb_le _ _) Hge), orb_true_r. reflexivity.
Qed.

Theorem coord_linger_zero_prompt now now' pe :
  now <= now' -> c_ph (initiate (LMs 0) now now' pe coord0) = SFinished.
Proof.
  intros H. rewrite initiate_ph. cbn [dl_of]. rewrite N.add_0_r, (proj2 (N.leb_le _ _) H), orb_true_r. reflexivity.
Qed.

(* with LINGER -1 nothing but empty pipes ends Lingering: the phase after any ticks that all saw a non-empty pipe *)
Theorem coord_infinite_linger_waits t0 t0' ts :
  Forall (fun tk => snd tk = false) ts ->
  c_ph (run_ticks LInf (initiate LInf t0 t0' false coord0) ts) = SLingering.
Proof.
  intros Hall.
  assert (H : forall c, CI LInf t0 c -> c_ph c = SLingering -> c_ph (run_ticks LInf c ts) = SLingering);
    [|apply H; [apply CI_initiate | reflexivity]].
  induction Hall as [|[[t t'] pe] ts Hpe _ IH]; intros c HC Hp; [exact Hp|].
  cbn [snd] in Hpe. subst pe. rewrite run_ticks_cons.
  apply IH; [apply CI_check, HC | rewrite (check_ph _ t0) by exact HC; exact Hp].
Qed.

Lemma prefix_map_firstn {A B} (f : A -> B) (o : list B) (ms : list A) :
  prefix o (map f ms) -> exists k, o = map f (firstn k ms).
Proof.
  intros [d Hd]. exists (length o). rewrite <- firstn_map, Hd.
  rewrite firstn_app, Nat.sub_diag, firstn_all. cbn. now rewrite app_nil_r.
Qed.

Lemma enc_contiguous_stream (bs : list (list msg)) :
  concat (map enc_contiguous bs) = stream_of (concat bs).
Proof.
  unfold stream_of, enc_contiguous. induction bs as [|b l IH]; [reflexivity|].
  cbn [map concat]. rewrite IH, !concat_app, map_app, concat_app. reflexivity.
Qed.

(* ENGINE LEMMA. The peer reads any prefix p of a valid data-phase byte stream, in any chunks, and then
   EOF: the messages delivered are the first k of those encoded, each one whole and unmodified; the
   engine's close() delivers nothing more. *)
Theorem engine_close_never_truncates cfg g ms p rest cs :
  e_phase (g_st g) = PData -> e_partial (g_st g) = [] -> g_acc g = [] ->
  Forall (wf_msg cfg) ms ->
  concat (map enc_codec (concat ms)) = p ++ rest ->
  concat (map fst cs) = p ->
  (exists k, snd (nets cfg g cs) = map ODeliver (firstn k ms)) /\
  deliveries (snd (e_close cfg (fst (nets cfg g cs)))) = [].
Proof.
  intros Hph Hpa Hacc Hwf HE Hcs. split; [|reflexivity].
  assert (Hq : quiescent cfg g) by (unfold quiescent, estep; rewrite Hph, Hacc; reflexivity).
  apply prefix_map_firstn.
  rewrite (nets_one_read cfg g cs Hq), <- (data_phase_one_read cfg g ms) by assumption. rewrite HE, <- Hcs.
  apply engine_outputs_prefix_monotone. exact Hq.
Qed.

Definition with_bufs (p : pstate) (c pi : list msg) (eg : egress) : pstate :=
  {| p_carry := c; p_pipe := pi; p_eg := eg; p_wire := p_wire p; p_eng := p_eng p; p_in := p_in p;
     p_accepted := p_accepted p; p_batches := p_batches p; p_written := p_written p; p_reads := p_reads p |}.

Lemma with_bufs_id p : with_bufs p (p_carry p) (p_pipe p) (p_eg p) = p.
Proof. destruct p; reflexivity. Qed.

Section Sys.
Variable bc : bcfg.
Variable ec : ecfg.
Variable cap : nat.
Variable g0 : engine.
Notation pstep := (p_step bc ec cap).
Notation ystep := (y_step bc ec cap).
Notation yrun := (y_run bc ec cap).

(* Events of the peer's side (reads, ingress driver, recv) neither look at the sender's buffers nor
   touch anything of the sender's *)
Definition peer_ev (e : pev) : Prop := match e with PRead _ _ | PIn _ => True | _ => False end.

Lemma peer_step_with_bufs p e c pi eg : peer_ev e -> pstep (with_bufs p c pi eg) e = with_bufs (pstep p e) c pi eg.
Proof.
  destruct e as [m | | n | k t | ie]; try contradiction; intros _; cbn [p_step with_bufs p_in p_wire p_eng].
  - destruct (i_ib (p_in p)); [|reflexivity]. destruct (i_pc (p_in p)); try reflexivity.
    destruct (e_net ec (p_eng p) (firstn k (p_wire p)) t). reflexivity.
  - destruct ie; reflexivity.
Qed.

Lemma peer_step_sender p e : peer_ev e ->
  p_pipe (pstep p e) = p_pipe p /\ p_written (pstep p e) = p_written p /\ p_accepted (pstep p e) = p_accepted p.
Proof.
  destruct e as [m | | n | k t | ie]; try contradiction; intros _; cbn [p_step].
  - destruct (i_ib (p_in p)); [|auto]. destruct (i_pc (p_in p)); auto.
    destruct (e_net ec (p_eng p) (firstn k (p_wire p)) t). auto.
  - destruct ie; auto.
Qed.

(* What survives a stop: the history is that of a data path whose session buffers were thrown away
   (and whose pipe may since have been fed by sends that nobody will read) *)
Definition SInv (p : pstate) : Prop := exists c pi eg, PInv ec g0 (with_bufs p c pi eg).

Lemma PInv_SInv p : PInv ec g0 p -> SInv p.
Proof. intros H. exists (p_carry p), (p_pipe p), (p_eg p). rewrite with_bufs_id. exact H. Qed.

Lemma SInv_step p e : (match e with PCycle | PWrite _ => False | _ => True end) -> SInv p -> SInv (pstep p e).
Proof.
  intros He (c & pi & eg & H). destruct e as [m | | n | k t | ie]; try contradiction.
  - exists c, (pi ++ [m]), eg. exact (pinv_step bc ec cap g0 _ (PSend m) H).
  - exists c, pi, eg. rewrite <- peer_step_with_bufs by exact I. apply pinv_step, H.
  - exists c, pi, eg. rewrite <- peer_step_with_bufs by exact I. apply pinv_step, H.
Qed.

(* such a history is all the receiving side depends on *)
Lemma SInv_never_truncates p :
  e_phase (g_st g0) = PData -> e_partial (g_st g0) = [] -> g_acc g0 = [] ->
  SInv p -> Forall (wf_msg ec) (p_accepted p) -> prefix (p_received p) (p_accepted p).
Proof.
  intros Hph Hpa Hacc (c & pi & eg & [Hb Heg Hw _ Hent Hin]) Hwf.
  cbn [with_bufs p_carry p_pipe p_eg p_wire p_in p_accepted p_batches p_written p_reads] in *.
  destruct Heg as (done & hd & HI & Hhd). apply einv_flat in HI.
  rewrite Hhd, enc_contiguous_stream, <- Hw, <- app_assoc in HI. clear Hhd Hw.
  set (ms := concat (p_batches p)) in *. rewrite <- Hb in Hwf |- *. apply Forall_app in Hwf.
  destruct (engine_close_never_truncates ec g0 ms _ _ (p_reads p) Hph Hpa Hacc (proj1 Hwf) (eq_sym HI) eq_refl)
    as [[k Hk] _].
  eapply prefix_trans; [|apply prefix_app]. apply prefix_trans with (b := i_entered (p_in p)).
  - unfold p_received. rewrite <- Hin. apply prefix_app.
  - rewrite Hent, Hk, deliveries_deliver. exists (skipn k ms). symmetry. apply firstn_skipn.
Qed.

(* a session that stops with nothing in its local buffers has written everything it was given *)
Lemma PInv_all_written p :
  PInv ec g0 p -> p_carry p = [] -> p_pipe p = [] -> e_chunks (p_eg p) = [] -> p_written p = stream_of (p_accepted p).
Proof.
  intros [Hb (done & hd & HI & Hhd) _ _ _ _] Hc Hp Hch. apply einv_flat in HI.
  unfold eg_flat in HI. rewrite Hch in HI. cbn [map concat] in HI. rewrite skipn_nil, app_nil_r in HI.
  rewrite HI, Hhd, enc_contiguous_stream, <- Hb, Hc, Hp, !app_nil_r. reflexivity.
Qed.

(* the batch assembly does not put anything back into an empty pipe *)
Lemma assemble_pipe_nil c pending carry b c' p' :
  assemble wsize c pending (carry, []) = (b, (c', p')) -> p' = [].
Proof.
  unfold assemble, assemble_gen. destruct (gate_open c pending); [|intros [= _ _ <-]; reflexivity].
  destruct carry as [|c0 carry]; [intros [= _ _ <-]; reflexivity|].
  unfold assemble_carry_gen.
  destruct (drain_carry _ _ _ _ _ _) as [[b0 t0] c1].
  destruct (true && negb _); [intros [= _ _ <-]; reflexivity|].
  destruct (top_up wsize c (max_count_of c pending) b0 t0 []) as [[b1 o] p1] eqn:Ht.
  intros [= _ _ <-]. apply top_up_split in Ht. destruct Ht as (pulled & _ & H2 & _).
  apply app_eq_nil in H2. tauto.
Qed.

Lemma p_step_pipe_nil p e : (forall m, e <> PSend m) -> p_pipe p = [] -> p_pipe (pstep p e) = [].
Proof.
  intros He H. destruct e as [m | | n | k t | ie].
  - destruct (He m eq_refl).
  - cbn [p_step]. rewrite H.
    destruct (assemble wsize bc (N.to_nat (e_msgs (p_eg p))) (p_carry p, [])) as [b [c' p']] eqn:Ha.
    apply assemble_pipe_nil in Ha. subst p'. destruct b; [exact H | reflexivity].
  - exact H.
  - rewrite (proj1 (peer_step_sender p (PRead k t) I)). exact H.
  - rewrite (proj1 (peer_step_sender p (PIn ie) I)). exact H.
Qed.

(* reduce the projections of a state that a step has written out as a record *)
Ltac ysimpl := cbn [y_p y_co y_l y_running y_bus y_sess y_pipe_alive y_eof set_p set_co].

(* an event of the data path is ignored, or it is the data path's own step - a send only while the socket
   is running, a batch assembly or a write only while the session is in its loop *)
Lemma ydata_cases s pe :
  ystep s (YData pe) = s \/
  ystep s (YData pe) = set_p s (pstep (y_p s) pe) /\
  match pe with PSend _ => y_running s = true | PCycle | PWrite _ => y_sess s = SOperational | _ => True end.
Proof.
  destruct pe; cbn [y_step]; [destruct (y_running s) | destruct (y_sess s) | destruct (y_sess s) | |]; auto.
Qed.

(* the data path: intact while the session runs, a stopped history afterwards *)
Record YInv (s : sys) : Prop := {
  yi_full : y_sess s = SOperational -> PInv ec g0 (y_p s);
  yi_weak : SInv (y_p s)
}.

Lemma yinv_step s e : YInv s -> YInv (ystep s e).
Proof.
  intros [Hf Hw]. destruct e as [pe | now now' | | | now now']; [|cbn [y_step]..].
  - destruct (ydata_cases s pe) as [->|[-> Hg]]; [split; assumption|].
    split; ysimpl; [intros Ho; apply pinv_step, Hf, Ho|].
    destruct pe; try (apply SInv_step; [exact I | exact Hw]); apply PInv_SInv, pinv_step, Hf, Hg.
  - split; assumption.
  - destruct (y_sess s) eqn:Es; [|split; [rewrite Es; discriminate | assumption]].
    destruct (stop_visible s); [|split; [rewrite Es; exact Hf | assumption]].
    split; [discriminate | exact Hw].
  - destruct (y_sess s) eqn:Es; split; ysimpl; rewrite ?Es; assumption || discriminate.
  - split; assumption.
Qed.

(* what the flags say about each other and about the coordinator *)
Record FlagsInv (s : sys) : Prop := {
  fl_co : if y_running s then y_co s = coord0 /\ y_bus s = false
         else y_bus s = true /\ exists t0, CI (y_l s) t0 (y_co s);
  fl_sess : match y_sess s with
           | SOperational => y_pipe_alive s = true /\ y_eof s = false
           | SShutting => y_running s = false
           end
}.

Lemma flags_inv_step s e : FlagsInv s -> FlagsInv (ystep s e).
Proof.
  intros [Hc Hs]. destruct e as [pe | now now' | | | now now']; [|cbn [y_step]..].
  - destruct (ydata_cases s pe) as [->|[-> _]]; split; assumption.
  - split; ysimpl; [split; [reflexivity|] | destruct (y_sess s); [exact Hs | reflexivity]].
    destruct (y_running s).
    + destruct Hc as [-> _]. exists now. apply CI_initiate.
    + destruct Hc as [_ [t0 HC]]. exists t0. rewrite initiate_not_running; [exact HC|].
      destruct HC as [HC|[HC _]]; rewrite HC; discriminate.
  - destruct (y_sess s) eqn:Es; [|split; [|rewrite Es]; assumption].
    destruct (stop_visible s) eqn:Ev; [|split; [|rewrite Es]; assumption].
    split; ysimpl; [exact Hc|]. unfold stop_visible in Ev.
    destruct (y_running s); [|reflexivity]. destruct Hc as [Hco Hb]. rewrite Hco, Hb in Ev. discriminate Ev.
  - destruct (y_sess s) eqn:Es; split; ysimpl; rewrite ?Es; assumption.
  - split; ysimpl; [|exact Hs]. destruct (y_running s).
    + destruct Hc as [-> Hb]. split; [reflexivity | exact Hb].
    + destruct Hc as [Hb [t0 HC]]. split; [exact Hb|]. exists t0. apply CI_check, HC.
Qed.

Lemma pipes_empty_alive s : y_pipe_alive s = true -> pipes_empty s = true -> p_pipe (y_p s) = [].
Proof. unfold pipes_empty. intros ->. cbn [negb orb]. destruct (p_pipe (y_p s)); [reflexivity | discriminate]. Qed.

(* LINGER = -1, every schedule: the coordinator does not leave Lingering while the pipe of a live session
   still holds a message *)
Definition drained (s : sys) : Prop :=
  y_sess s = SOperational -> c_ph (y_co s) = SFinished -> p_pipe (y_p s) = [].

Lemma drained_step s e : FlagsInv s -> y_l s = LInf -> drained s -> drained (ystep s e).
Proof.
  intros [Hc Hs] Hl Hd.
  assert (Hnew : forall c, (c_ph c = SFinished -> c_ph (y_co s) = SFinished \/ pipes_empty s = true) ->
                 y_sess s = SOperational -> c_ph c = SFinished -> p_pipe (y_p s) = []).
  { intros c H Ho Hf. destruct (H Hf) as [Hf'|Hpe]; [exact (Hd Ho Hf')|].
    rewrite Ho in Hs. apply pipes_empty_alive; [apply Hs | exact Hpe]. }
  destruct e as [pe | now now' | | | now now']; [|cbn [y_step]..].
  - destruct (ydata_cases s pe) as [->|[-> Hg]]; [exact Hd|]. intros Ho Hf. ysimpl.
    destruct pe as [m | | | |]; try (apply p_step_pipe_nil; [intros m; discriminate | exact (Hd Ho Hf)]).
    rewrite Hg in Hc. cbn [y_sess y_co set_p] in Hf. rewrite (proj1 Hc) in Hf. discriminate Hf.
  - unfold drained. ysimpl. apply Hnew. rewrite Hl. destruct (y_running s).
    + destruct Hc as [-> _]. rewrite initiate_ph. destruct (pipes_empty s); [auto | discriminate].
    + destruct Hc as [_ [t0 HC]]. rewrite initiate_not_running; [auto|].
      destruct HC as [HC|[HC _]]; rewrite HC; discriminate.
  - destruct (y_sess s); [destruct (stop_visible s)|]; [discriminate | exact Hd ..].
  - destruct (y_sess s) eqn:Es; [exact Hd|]. intros Ho. cbn [y_sess y_co set_p] in Ho. congruence.
  - unfold drained. ysimpl. apply Hnew. rewrite Hl. destruct (y_running s).
    + destruct Hc as [-> _]. discriminate.
    + destruct Hc as [_ [t0 HC]]. rewrite Hl in HC. rewrite (check_ph _ t0) by exact HC.
      destruct (pipes_empty s); auto.
Qed.

Lemma y_l_step s e : y_l (ystep s e) = y_l s.
Proof.
  destruct e as [pe | | | |]; [|cbn [y_step]..].
  - destruct (ydata_cases s pe) as [->|[-> _]]; reflexivity.
  - reflexivity.
  - destruct (y_sess s); [destruct (stop_visible s)|]; reflexivity.
  - destruct (y_sess s); reflexivity.
  - reflexivity.
Qed.

Definition Reach (l : linger) (s : sys) : Prop := YInv s /\ FlagsInv s /\ y_l s = l /\ (l = LInf -> drained s).

Lemma reach_step l s e : Reach l s -> Reach l (ystep s e).
Proof.
  intros (HY & HC & Hl & Hd). split; [apply yinv_step, HY|]. split; [apply flags_inv_step, HC|].
  split; [rewrite y_l_step; exact Hl|]. intros ->. apply drained_step; auto.
Qed.

Lemma reach_init l : Reach l (y_init l g0).
Proof.
  split; [split; [intros _|apply PInv_SInv]; apply pinv_init|]. split; [split; cbn; auto|].
  split; [reflexivity|]. intros _ _ H. discriminate H.
Qed.

Lemma reach_run l evs : Reach l (yrun l g0 evs).
Proof. unfold y_run. apply fold_left_inv; [apply reach_step | apply reach_init]. Qed.

(* SYSTEM LEVEL, for every LINGER and every schedule - the session may be stopped at any point, with
   anything in its buffers, and the peer may read the wire in any pieces: what recv() has returned on the
   peer is a prefix of what send() accepted (whole messages, unmodified, in order, no duplicates). *)
Theorem sys_never_truncates l evs :
  e_phase (g_st g0) = PData -> e_partial (g_st g0) = [] -> g_acc g0 = [] ->
  let s := yrun l g0 evs in
  Forall (wf_msg ec) (p_accepted (y_p s)) ->
  prefix (p_received (y_p s)) (p_accepted (y_p s)).
Proof. intros Hph Hpa Hacc s. apply SInv_never_truncates; try assumption. apply reach_run. Qed.

Lemma y_co_step s e :
  y_co (ystep s e) =
  match e with
  | YClose now now' => initiate (y_l s) now now' (pipes_empty s) (y_co s)
  | YTick now now' => check_and_advance (y_l s) now now' (pipes_empty s) (y_co s)
  | _ => y_co s
  end.
Proof.
  destruct e as [pe | | | |]; [|cbn [y_step]..].
  - destruct (ydata_cases s pe) as [->|[-> _]]; reflexivity.
  - reflexivity.
  - destruct (y_sess s); [destruct (stop_visible s)|]; reflexivity.
  - destruct (y_sess s); reflexivity.
  - reflexivity.
Qed.

(* once the bus event is out, the session takes the stop request and the core then forgets its pipe *)
Lemma stop_then_gone s : y_bus s = true -> y_pipe_alive (ystep (ystep s YSessStop) YSessGone) = false.
Proof.
  intros Hb. cbn [y_step]. unfold stop_visible. rewrite Hb. cbn [orb].
  destruct (y_sess s) eqn:Es; ysimpl; rewrite ?Es; reflexivity.
Qed.

(* The shutdown state machine always terminates, for EVERY LINGER (-1 included) and from every reachable
   state: once close()/term() has been called, the session stops (the bus event is visible to it), the
   core removes its pipe, and the next maintenance tick reaches Finished. *)
Theorem sys_close_reaches_finished l evs now now' t t' :
  c_ph (y_co (yrun l g0 (evs ++ [YClose now now'; YSessStop; YSessGone; YTick t t']))) = SFinished.
Proof.
  unfold y_run. rewrite fold_left_app. fold (yrun l g0 evs). cbn [fold_left].
  destruct (reach_run l evs) as (_ & HC & _).
  destruct (fl_co _ (flags_inv_step _ (YClose now now') HC)) as [Hb [t0 HCI]].
  revert Hb HCI. generalize (ystep (yrun l g0 evs) (YClose now now')). intros s Hb HCI.
  rewrite y_co_step. unfold pipes_empty. rewrite (stop_then_gone s Hb). cbn [negb orb].
  rewrite (check_ph _ t0); [reflexivity|]. rewrite !y_l_step, !y_co_step. exact HCI.
Qed.

(* a stopped session has handed everything accepted to the transport: kept by every step, provided the
   session stops only after Lingering is over and with nothing in core_carryover / EgressBuffer *)
Definition flushed (s : sys) : Prop := y_sess s = SShutting -> all_transmitted s.

Lemma flushed_step s e :
  Reach LInf s ->
  (match e with
   | YSessStop => y_sess s = SOperational ->
                  (2 < rank (c_ph (y_co s)))%nat /\ p_carry (y_p s) = [] /\ e_chunks (p_eg (y_p s)) = []
   | _ => True end) ->
  flushed s -> flushed (ystep s e).
Proof.
  intros ([Hfull _] & [Hc Hs] & _ & Hd) Hhyp Hfl. specialize (Hd eq_refl).
  destruct e as [pe | now now' | | | now now']; [|cbn [y_step]..].
  - (* the data path: with the session stopped only the peer's side still moves *)
    destruct (ydata_cases s pe) as [->|[-> Hg]]; [exact Hfl|].
    intros Hsh. cbn [y_sess y_co set_p] in Hsh. rewrite Hsh in Hs, Hg.
    unfold all_transmitted. ysimpl.
    destruct pe as [m | | n | k t | ie]; try congruence;
      [destruct (peer_step_sender (y_p s) (PRead k t) I) as (_ & -> & ->)
      | destruct (peer_step_sender (y_p s) (PIn ie) I) as (_ & -> & ->)]; exact (Hfl Hsh).
  - exact Hfl.
  - (* the session stops: Lingering is over, so the pipe is drained, and its own buffers are empty *)
    destruct (y_sess s) eqn:Es; [|exact Hfl]. destruct (stop_visible s); [|exact Hfl]. intros _.
    destruct (Hhyp eq_refl) as (Hrank & Hcarry & Hchunks).
    assert (Hfin : c_ph (y_co s) = SFinished).
    { destruct (y_running s); [destruct Hc as [Hco _]; rewrite Hco in Hrank; cbn in Hrank; lia|].
      destruct Hc as [_ [t0 [HC|[HC _]]]]; [exact HC|]. rewrite HC in Hrank. cbn in Hrank. lia. }
    apply (PInv_all_written (y_p s)); auto.
  - destruct (y_sess s) eqn:Es; [exact Hfl|]. intros _. exact (Hfl Es).
  - exact Hfl.
Qed.

(* OUTSIDE the failing class. LINGER = -1; the session hears of the shutdown only from the coordinator
   (after Lingering, as initiate_core_shutdown intends) and holds nothing in core_carryover / EgressBuffer
   at that moment. Then the linger test has kept the session alive until the socket-to-session pipe was
   drained, and everything accepted has been handed to the transport before the write half is shut. *)
Theorem sys_linger_transmits_all_outside evs :
  stop_after_linger bc ec cap (y_init LInf g0) evs ->
  local_buffers_empty_at_stop bc ec cap (y_init LInf g0) evs ->
  let s := yrun LInf g0 evs in
  y_eof s = true -> all_transmitted s.
Proof.
  intros H1 H2 s. subst s. unfold y_run.
  assert (H0 : Reach LInf (y_init LInf g0) /\ flushed (y_init LInf g0))
    by (split; [apply reach_init | intros H; discriminate H]).
  revert H1 H2 H0. generalize (y_init LInf g0).
  induction evs as [|e evs IH]; intros s H1 H2 (HR & Hfl); cbn [fold_left].
  - intros He. apply Hfl. destruct HR as (_ & [_ K] & _). revert K.
    destruct (y_sess s); [intros [_ K]; congruence | reflexivity].
  - cbn [stop_after_linger local_buffers_empty_at_stop] in H1, H2. destruct H1 as [H1a H1], H2 as [H2a H2].
    apply IH; [exact H1 | exact H2 |]. split; [apply reach_step, HR|].
    apply flushed_step; auto. destruct e; auto.
Qed.

End Sys.
