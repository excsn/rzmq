(* Two engines joined by two byte channels (Model/Pair.v) are an instance of the two-node network of Base/Kahn.v:
   the states a schedule reaches are determined by the bytes delivered (PInv), so all drained states agree
   (pair_schedule_independent); the outcome on the finite grid of configurations is then read off one schedule,
   the eager one, by evaluation (check_pair_grid): the runs with mismatched mechanisms or a wrong password with the
   socket types as variables (check_pair_mismatch), the 484 with matching mechanisms one by one (check_pair_types).
   Last, the three socket-type compatibility tables compared: what ZMTP/3 does is an entry of the grid. *)
From RZ Require Import Base.Prelude Base.Stepper Base.Kahn Model.Codec Proofs.CodecProofs Model.Engine
  Proofs.EngineProofs Model.Pair.
Local Open Scope N_scope.

Lemma sends_app a b : sends (a ++ b) = sends a ++ sends b.
Proof. unfold sends. rewrite map_app, concat_app. reflexivity. Qed.

Lemma sends_prefix a b : prefix a b -> prefix (sends a) (sends b).
Proof. intros [d ->]. rewrite sends_app. apply prefix_app. Qed.

Lemma F_mono cfg a d : prefix (F cfg a) (F cfg (a ++ d)).
Proof.
  unfold F. destruct (engine_outputs_prefix_monotone cfg (e_new 0) a 0 d 0 (e_new_quiescent cfg 0)) as [x Hx].
  rewrite Hx, sends_app, app_assoc. apply prefix_app.
Qed.

(* what the rest of an engine's life depends on: protocol state and accumulator (not the clock) *)
Definition same_core (g g' : engine) : Prop := g_st g = g_st g' /\ g_acc g = g_acc g'.

(* feeding d to an engine that has already consumed x = feeding x ++ d to a fresh one *)
Lemma e_net_incremental cfg g x d t :
  same_core g (fst (e_net cfg (e_new 0) x 0)) ->
  same_core (fst (e_net cfg g d t)) (fst (e_net cfg (e_new 0) (x ++ d) 0)) /\
  snd (e_net cfg (e_new 0) (x ++ d) 0) = snd (e_net cfg (e_new 0) x 0) ++ snd (e_net cfg g d t).
Proof.
  unfold same_core, e_net. cbn [e_new g_st g_acc app].
  rewrite (sk_pump_app (engine_ok cfg) e_init x d).
  destruct (pump (estep cfg) emu EMU_MAX e_init x) as [[s1 r1] o1]. cbn [fst snd g_st g_acc].
  intros [-> ->].
  destruct (pump (estep cfg) emu EMU_MAX s1 (r1 ++ d)) as [[s2 r2] o2]. cbn [fst snd g_st g_acc].
  rewrite visible_app. auto.
Qed.

(* the pair of engines is a state of the two-node Kahn network (FA, FB) = (F ca, F cb): what is in flight and
   what each engine is and has emitted are functions of the delivered byte strings *)
Record PInv (ca cb : ecfg) (s : psys) : Prop := {
  pi_ab : db s ++ ab s = F ca (da s);
  pi_ba : da s ++ ba s = F cb (db s);
  pi_a : same_core (pa s) (fst (e_net ca (e_new 0) (da s) 0));
  pi_b : same_core (pb s) (fst (e_net cb (e_new 0) (db s) 0));
  pi_oa : oa s = snd (e_net ca (e_new 0) (da s) 0);
  pi_ob : ob s = snd (e_net cb (e_new 0) (db s) 0);
  pi_reach : Reach (F ca) (F cb) (da s) (db s)
}.

Lemma e_net_nil cfg : e_net cfg (e_new 0) [] 0 = (e_new 0, []).
Proof. reflexivity. Qed.

Lemma PInv_init ca cb : PInv ca cb p_init.
Proof. constructor; try apply R0; cbn; try reflexivity; split; reflexivity. Qed.

Lemma PInv_step ca cb s x : PInv ca cb s -> PInv ca cb (pstep ca cb s x).
Proof.
  intros [H1 H2 H3 H4 H5 H6 HR]. destruct x as [k t|k t]; cbn [pstep].
  - destruct (e_net_incremental cb (pb s) (db s) (firstn k (ab s)) t H4) as [Hc Ho].
    destruct (e_net cb (pb s) (firstn k (ab s)) t) as [g o]. cbn [fst snd] in *.
    constructor; cbn [pa pb ab ba da db oa ob]; try assumption.
    + rewrite <- app_assoc, firstn_skipn. exact H1.
    + unfold F in *. rewrite Ho, sends_app.
      rewrite (app_assoc (sends e_start)), <- H2, <- app_assoc. reflexivity.
    + rewrite Ho, H6. reflexivity.
    + apply Reach_toB; [exact HR|]. exists (skipn k (ab s)). rewrite <- app_assoc, firstn_skipn. symmetry. exact H1.
  - destruct (e_net_incremental ca (pa s) (da s) (firstn k (ba s)) t H3) as [Hc Ho].
    destruct (e_net ca (pa s) (firstn k (ba s)) t) as [g o]. cbn [fst snd] in *.
    constructor; cbn [pa pb ab ba da db oa ob]; try assumption.
    + unfold F in *. rewrite Ho, sends_app.
      rewrite (app_assoc (sends e_start)), <- H1, <- app_assoc. reflexivity.
    + rewrite <- app_assoc, firstn_skipn. exact H2.
    + rewrite Ho, H5. reflexivity.
    + apply Reach_toA; [exact HR|]. exists (skipn k (ba s)). rewrite <- app_assoc, firstn_skipn. symmetry. exact H2.
Qed.

Lemma PInv_run ca cb xs : PInv ca cb (prun ca cb xs).
Proof. unfold prun. apply fold_left_inv; [intros s x; apply PInv_step | apply PInv_init]. Qed.
Lemma PInv_eager ca cb r : forall s, PInv ca cb s -> PInv ca cb (eager ca cb r s).
Proof.
  induction r as [|r IH]; intros s Hs; [exact Hs|]. cbn [eager].
  destruct (drained s); [exact Hs|]. apply IH, PInv_step, PInv_step, Hs.
Qed.

Lemma drained_quiescent ca cb s : PInv ca cb s -> drained s = true -> Kahn.quiescent (F ca) (F cb) (da s) (db s).
Proof.
  intros [H1 H2 _ _ _ _ _]. unfold drained. destruct (ab s); [|discriminate]. destruct (ba s); [|discriminate].
  intros _. rewrite app_nil_r in *. split; assumption.
Qed.

(* Confluence of the handshake (and of everything after it): whatever the delivery order and
   fragmentation, once both channels are drained the two engines are in the same protocol states and
   have emitted the same actions. *)
Theorem pair_schedule_independent ca cb s1 s2 :
  PInv ca cb s1 -> PInv ca cb s2 -> drained s1 = true -> drained s2 = true ->
  da s1 = da s2 /\ db s1 = db s2 /\ same_core (pa s1) (pa s2) /\ same_core (pb s1) (pb s2) /\
  oa s1 = oa s2 /\ ob s1 = ob s2.
Proof.
  intros I1 I2 D1 D2.
  destruct (kahn_confluence (F ca) (F cb) (F_mono ca) (F_mono cb) _ _ _ _
              (pi_reach _ _ _ I1) (drained_quiescent _ _ _ I1 D1)
              (pi_reach _ _ _ I2) (drained_quiescent _ _ _ I2 D2)) as [Ha Hb].
  destruct I1 as [_ _ A1 B1 OA1 OB1 _]. destruct I2 as [_ _ A2 B2 OA2 OB2 _].
  rewrite Ha in *. rewrite Hb in *.
  repeat split; try congruence; unfold same_core in *; intuition congruence.
Qed.

Corollary pair_outcome_independent ca cb s1 s2 :
  PInv ca cb s1 -> PInv ca cb s2 -> drained s1 = true -> drained s2 = true -> outcome s1 = outcome s2.
Proof.
  intros P1 P2 D1 D2. destruct (pair_schedule_independent ca cb s1 s2 P1 P2 D1 D2) as (_ & _ & [A _] & [B _] & OA & OB).
  unfold outcome. rewrite A, B, OA, OB. reflexivity.
Qed.

(* [eager] names its first delivery twice; evaluated as written, engine B would run twice per round *)
Fixpoint eager_let (ca cb : ecfg) (rounds : nat) (s : psys) : psys :=
  match rounds with
  | O => s
  | S r =>
      if drained s then s
      else let s1 := pstep ca cb s (ToB (length (ab s)) 0) in
           eager_let ca cb r (pstep ca cb s1 (ToA (length (ba s1)) 0))
  end.
Lemma eager_let_eq ca cb r : forall s, eager_let ca cb r s = eager ca cb r s.
Proof.
  induction r as [|r IH]; intros s; [reflexivity|]. cbn [eager eager_let].
  destruct (drained s); [reflexivity|]. apply IH.
Qed.

Lemma grid_In tA tB mc ids :
  In (tA, tB, mc, ids) grid -> In tA all_types /\ In tB all_types /\ In mc [0; 1; 2; 3; 4].
Proof.
  unfold grid. rewrite <- flat_map_concat_map, in_flat_map. intros (a & Ha & H).
  rewrite <- flat_map_concat_map, in_flat_map in H. destruct H as (b & Hb & H).
  rewrite <- flat_map_concat_map, in_flat_map in H. destruct H as (m & Hm & H).
  destruct H as [H|[H|[]]]; injection H as <- <- <- <-; auto.
Qed.

(* mismatched mechanisms and a wrong password are found out before any socket type is looked at: the six runs
   go through with the types as variables *)
Lemma check_pair_mismatch tA tB mc ids : In mc [2; 3; 4] -> check_pair tA tB mc ids = true.
Proof. intros [<-|[<-|[<-|[]]]]; destruct ids; vm_compute; reflexivity. Qed.

(* what is left to evaluation: the 484 runs with matching mechanisms.  Stated over [forallb]: Qed compares the two
   closed terms by running both. *)
Lemma check_pair_types tA tB plain ids :
  In tA all_types -> In tB all_types -> check_pair tA tB (bn plain) ids = true.
Proof.
  intros Ha Hb.
  enough (forallb (fun plain => forallb (fun ids => forallb (fun tA => forallb (fun tB =>
            let '(ca, cb) := grid_pair tA tB (bn plain) ids in
            let s := eager_let ca cb EAGER_ROUNDS p_init in
            drained s && good_outcome tA tB (bn plain) ids (outcome s))
            all_types) all_types) [false; true]) [false; true] = true) as H.
  { rewrite forallb_forall in H. specialize (H plain ltac:(destruct plain; cbn; auto)).
    rewrite forallb_forall in H. specialize (H ids ltac:(destruct ids; cbn; auto)).
    rewrite forallb_forall in H. specialize (H _ Ha). rewrite forallb_forall in H. specialize (H _ Hb).
    cbv beta in H. unfold check_pair.
    destruct (grid_pair tA tB (bn plain) ids) as [ca cb]. rewrite <- eager_let_eq. exact H. }
  vm_compute. reflexivity.
Qed.

Lemma check_pair_grid tA tB mc ids : In (tA, tB, mc, ids) grid -> check_pair tA tB mc ids = true.
Proof.
  intros (Ha & Hb & [<-|[<-|Hm]])%grid_In.
  - apply (check_pair_types tA tB false); assumption.
  - apply (check_pair_types tA tB true); assumption.
  - apply check_pair_mismatch, Hm.
Qed.

Lemma forallb2_forall {A} (f : A -> A -> bool) l :
  forallb (fun a => forallb (f a) l) l = true -> forall a b, In a l -> In b l -> f a b = true.
Proof. intros H a b Ha Hb. rewrite forallb_forall in H. specialize (H a Ha). rewrite forallb_forall in H. auto. Qed.

(* the ZMTP table is symmetric: the verdict does not depend on who connects *)
Theorem verdict_symmetric a b : In a all_types -> In b all_types -> compat_v2 a b = compat_v2 b a.
Proof.
  intros Ha Hb. apply Bool.eqb_prop.
  apply (forallb2_forall (fun a b => Bool.eqb (compat_v2 a b) (compat_v2 b a)) all_types); [|exact Ha|exact Hb].
  vm_compute. reflexivity.
Qed.

Lemma types_ok_v2 a b : types_ok a b = compat_v2 a b && compat_v2 b a.
Proof.
  unfold types_ok, compat_v2. destruct (stype_code a), (stype_code b); rewrite ?andb_false_r; reflexivity.
Qed.

Lemma outcome_verdict a b s : good_outcome a b 0 false (outcome s) = true ->
  phase_eqb (e_phase (g_st (pa s))) PData && phase_eqb (e_phase (g_st (pb s))) PData = types_ok a b.
Proof.
  unfold good_outcome, outcome. change (0 <? 2) with true. cbn [andb].
  destruct (types_ok a b); intros H; repeat (apply andb_true_iff in H as [H ?]);
    destruct (phase_eqb (e_phase (g_st (pa s))) PData), (phase_eqb (e_phase (g_st (pb s))) PData);
    cbn in *; congruence.
Qed.

(* what the engines do with a pair of types is an entry of the grid.  The run is made a variable before anything
   is compared, so that no conversion has it on both sides and starts it *)
Lemma compat_v3_types_ok a b : In a all_types -> In b all_types -> compat_v3 a b = types_ok a b.
Proof.
  intros Ha Hb. generalize (check_pair_types a b false false Ha Hb). change (bn false) with 0.
  unfold check_pair, compat_v3. destruct (grid_pair a b 0 false) as [ca cb].
  generalize (eager ca cb EAGER_ROUNDS p_init). intros s [_ H]%andb_true_iff. exact (outcome_verdict a b s H).
Qed.

(* ZMTP/3 engines accept a pair of wire socket types exactly when the ZMTP/2 table does (all 11 names) *)
Theorem v3_verdict_is_v2_verdict a b : In a all_types -> In b all_types -> compat_v3 a b = compat_v2 a b.
Proof.
  intros Ha Hb. rewrite compat_v3_types_ok, types_ok_v2, <- (verdict_symmetric a b) by assumption. apply andb_diag.
Qed.

(* over inproc the same verdict is given for the 8 socket types rzmq implements, except DEALER-DEALER *)
Definition is_dealer_dealer (a b : bytes) : bool := bytes_eqb a s_DEALER && bytes_eqb b s_DEALER.

Lemma rzmq_types_all a : In a rzmq_types -> In a all_types.
Proof. unfold rzmq_types. cbn [In]. intros H. repeat destruct H as [<-|H]; try contradiction; cbn; auto 15. Qed.

Theorem one_verdict_outside a b : In a rzmq_types -> In b rzmq_types -> is_dealer_dealer a b = false ->
  compat_v3 a b = compat_v2 a b /\ compat_inproc a b = compat_v2 a b.
Proof.
  intros Ha Hb Hd. split.
  - apply v3_verdict_is_v2_verdict; apply rzmq_types_all; assumption.
  - apply Bool.eqb_prop. rewrite <- (orb_false_l (Bool.eqb _ _)), <- Hd.
    apply (forallb2_forall (fun a b => is_dealer_dealer a b || Bool.eqb (compat_inproc a b) (compat_v2 a b)) rzmq_types);
      [|exact Ha|exact Hb].
    vm_compute. reflexivity.
Qed.
