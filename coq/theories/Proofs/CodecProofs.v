(* Model/Codec.v: the encoders write the RFC frame, the live decoder (dec_buffer) reads back what they wrote
   and is stable under appended bytes, which makes both stream decoders steppers (Base/Stepper.v); the slice
   decoders and the length peek agree with the live decoder wherever header + size fits in 64 bits. *)
From RZ Require Import Base.Prelude Base.Stepper Model.Codec.
Local Open Scope N_scope.

Lemma be_val_snoc l b : be_val (l ++ [b]) = be_val l * 256 + b.
Proof. unfold be_val. rewrite fold_left_app. reflexivity. Qed.

Lemma be_bytes_length k x : length (be_bytes k x) = k.
Proof. revert x. induction k as [|k IH]; intros x; cbn [be_bytes]; [reflexivity|].
  rewrite app_length, IH. simpl. lia. Qed.

Lemma be_roundtrip k x : be_val (be_bytes k x) = x mod 256 ^ N.of_nat k.
Proof.
  revert x. induction k as [|k IH]; intros x.
  - cbn [be_bytes]. change (N.of_nat 0) with 0. rewrite N.pow_0_r, N.mod_1_r. reflexivity.
  - cbn [be_bytes]. rewrite be_val_snoc, IH.
    replace (N.of_nat (S k)) with (N.succ (N.of_nat k)) by lia.
    rewrite N.pow_succ_r'.
    assert (0 < 256 ^ N.of_nat k) as Hp by (apply N.neq_0_lt_0, N.pow_nonzero; lia).
    rewrite N.mod_mul_r by lia.
    rewrite N.add_comm, (N.mul_comm 256). reflexivity.
Qed.

Lemma be_bytes_wf k x : wf_bytes (be_bytes k x) = true.
Proof.
  revert x. induction k as [|k IH]; intros x; cbn [be_bytes]; [reflexivity|].
  rewrite wf_bytes_app, IH. cbn [wf_bytes forallb]. rewrite andb_true_r.
  apply N.ltb_lt. apply N.mod_lt. lia.
Qed.

Lemma be_bytes8 x : be_bytes 8 x =
  [x / 72057594037927936 mod 256; x / 281474976710656 mod 256; x / 1099511627776 mod 256;
   x / 4294967296 mod 256; x / 16777216 mod 256; x / 65536 mod 256; x / 256 mod 256; x mod 256].
Proof.
  cbn [be_bytes app]. rewrite !N.div_div by lia.
  reflexivity.
Qed.

Lemma flags_long m c l : is_long (flags_byte m c l) = l.
Proof. destruct m, c, l; reflexivity. Qed.
Lemma flags_more m c l : has_more (flags_byte m c l) = m.
Proof. destruct m, c, l; reflexivity. Qed.
Lemma flags_cmd m c l : has_cmd (flags_byte m c l) = c.
Proof. destruct m, c, l; reflexivity. Qed.
Lemma flags_rfc m c l : flags_byte m c l = rfc_flags m c l.
Proof. destruct m, c, l; reflexivity. Qed.
Lemma flags_lt m c l : flags_byte m c l < 8.
Proof. destruct m, c, l; reflexivity. Qed.

Definition fits (f : frame) : Prop := len (f_payload f) < U64.

Lemma enc_codec_rfc f : fits f -> enc_codec f = rfc_frame f.
Proof.
  unfold fits, enc_codec, enc_header_only, enc_header, rfc_frame. intros Hf.
  set (n := len (f_payload f)) in *.
  destruct (n <=? 255) eqn:Hle.
  - assert (n <? 256 = true) as -> by lia. rewrite flags_rfc. reflexivity.
  - assert (n <? 256 = false) as -> by lia. rewrite flags_rfc.
    rewrite N.mod_small by exact Hf. rewrite be_bytes8. reflexivity.
Qed.

Lemma enc_contiguous_rfc bs : Forall fits (concat bs) ->
  enc_contiguous bs = concat (map rfc_frame (concat bs)).
Proof.
  unfold enc_contiguous. induction (concat bs) as [|f fs IH]; intros H; [reflexivity|].
  inversion H; subst. cbn [map concat]. rewrite IH by assumption. rewrite enc_codec_rfc by assumption.
  reflexivity.
Qed.

Lemma enc_vectored_rfc bs : Forall fits (concat bs) ->
  concat (enc_vectored bs) = concat (map (fun f => rfc_frame (nocmd f)) (concat bs)).
Proof.
  unfold enc_vectored. induction (concat bs) as [|f fs IH]; intros H; [reflexivity|].
  inversion H; subst. cbn [map concat]. rewrite concat_app, IH by assumption.
  f_equal. rewrite <- enc_codec_rfc by assumption.
  unfold enc_codec, enc_header_only, enc_header_nocmd, nocmd. cbn [f_more f_cmd f_payload].
  destruct (f_payload f); cbn [concat]; rewrite ?app_nil_r; reflexivity.
Qed.

Lemma enc_batch_vectored_rfc bs : Forall fits (concat bs) ->
  (forall f, In f (concat bs) -> f_cmd f = false) ->
  concat (enc_batch_vectored bs) = concat (map rfc_frame (concat bs)).
Proof.
  intros Hf Hc. unfold enc_batch_vectored. destruct (total_payload bs <? FLAT_THRESHOLD).
  - cbn [concat]. rewrite app_nil_r. apply enc_contiguous_rfc. exact Hf.
  - rewrite enc_vectored_rfc by exact Hf. f_equal. apply map_ext_in. intros f Hin.
    f_equal. destruct f as [m c p]. unfold nocmd. cbn. specialize (Hc _ Hin). cbn in Hc. subst. reflexivity.
Qed.

Definition admitted (maxsz : Z) (f : frame) : Prop :=
  fits f /\ over_limit maxsz (len (f_payload f)) = false.

Lemma mk_frame_flags m c l p : mk_frame (flags_byte m c l) p = {| f_more := m; f_cmd := c; f_payload := p |}.
Proof. unfold mk_frame. rewrite flags_more, flags_cmd. reflexivity. Qed.

(* what every decoder reads back from an encoded header, whatever follows it *)
Lemma enc_header_parse m c n fl : n < U64 -> fl = flags_byte m c (negb (n <=? 255)) ->
  exists t, enc_header m c n = fl :: t /\ hdr_len fl = S (length t) /\
            forall x, raw_size fl (fl :: t ++ x) = n.
Proof.
  intros Hn ->. unfold enc_header, hdr_len, raw_size. rewrite flags_long.
  destruct (n <=? 255); cbn [negb].
  - exists [n]. repeat split.
  - exists (be_bytes 8 (n mod U64)). rewrite be_bytes_length. repeat split. intros x. cbn [skipn].
    rewrite firstn_app_le, firstn_all2 by (rewrite be_bytes_length; lia).
    rewrite be_roundtrip. change (256 ^ N.of_nat 8) with U64. rewrite !(N.mod_small n U64 Hn). reflexivity.
Qed.

Lemma dec_buffer_enc maxsz f rest : admitted maxsz f ->
  dec_buffer maxsz (enc_codec f ++ rest) = DFrame f (length (enc_codec f)).
Proof.
  intros [Hf Hlim]. destruct f as [m c p]. unfold fits in Hf. cbn [f_payload] in *.
  destruct (enc_header_parse m c (len p) _ Hf eq_refl) as (t & Eh & Hh & Hr).
  unfold enc_codec, enc_header_only. cbn [f_more f_cmd f_payload]. rewrite Eh, <- app_assoc. cbn [app].
  unfold dec_buffer. rewrite Hh, Hr, Hlim. unfold len in *. cbn [length skipn]. rewrite !app_length.
  destruct (S (length t + (length p + length rest)) <? S (length t))%nat eqn:E1; [lia|].
  destruct (N.of_nat (S (length t + (length p + length rest)) - S (length t)) <? N.of_nat (length p)) eqn:E2; [lia|].
  rewrite Nat2N.id, (proj2 (firstn_skipn_app (length t) t _ eq_refl)), (proj1 (firstn_skipn_app (length p) p _ eq_refl)).
  rewrite mk_frame_flags. reflexivity.
Qed.

(* the limit only decides between the frame and an error: what the decoder finds in a buffer without a limit,
   it finds with limit m unless the payload is over it *)
Lemma dec_buffer_limit m b f n : dec_buffer (-1) b = DFrame f n ->
  dec_buffer m b = if over_limit m (len (f_payload f)) then DErr else DFrame f n.
Proof.
  unfold dec_buffer. destruct b as [|fl t]; [discriminate|].
  destruct (length (fl :: t) <? hdr_len fl)%nat; [discriminate|]. cbn [over_limit Z.leb Z.compare andb].
  destruct (N.of_nat (length (fl :: t) - hdr_len fl) <? raw_size fl (fl :: t)) eqn:E; [discriminate|].
  intros [= <- <-]. cbn [mk_frame f_payload]. unfold len at 1.
  rewrite firstn_length_le' by (rewrite skipn_length; lia). rewrite N2Nat.id. reflexivity.
Qed.

Lemma dec_buffer_enc_limit m f rest : fits f ->
  dec_buffer m (enc_codec f ++ rest) = if over_limit m (len (f_payload f)) then DErr else DFrame f (length (enc_codec f)).
Proof. intros Hf. apply dec_buffer_limit, dec_buffer_enc. split; [exact Hf|reflexivity]. Qed.

Theorem limit_accepts_exact m f rest :
  (0 <= m)%Z -> fits f -> len (f_payload f) = Z.to_N m ->
  dec_buffer m (enc_codec f ++ rest) = DFrame f (length (enc_codec f)).
Proof.
  intros Hm Hf Hl. rewrite dec_buffer_enc_limit by exact Hf.
  unfold over_limit. rewrite Hl, N.ltb_irrefl, andb_false_r. reflexivity.
Qed.

Theorem limit_rejects_above m f rest :
  (0 <= m)%Z -> fits f -> Z.to_N m < len (f_payload f) ->
  dec_buffer m (enc_codec f ++ rest) = DErr.
Proof.
  intros Hm Hf Hl. rewrite dec_buffer_enc_limit by exact Hf.
  unfold over_limit. apply Z.leb_le in Hm. apply N.ltb_lt in Hl. rewrite Hm, Hl. reflexivity.
Qed.

Lemma raw_size_app fl t d : (hdr_len fl <= S (length t))%nat ->
  raw_size fl (fl :: t ++ d) = raw_size fl (fl :: t).
Proof.
  unfold raw_size, hdr_len. destruct (is_long fl); intros H.
  - cbn [skipn]. rewrite firstn_app_le by lia. reflexivity.
  - destruct t; [cbn [length] in H; lia|]. reflexivity.
Qed.

(* it never panics; an error or a frame, once seen, is not changed by further bytes, and a frame is
   cut from the front of the buffer *)
Lemma dec_buffer_cases maxsz b :
  match dec_buffer maxsz b with
  | DNeed => True
  | DPanic => False
  | DErr => forall d, dec_buffer maxsz (b ++ d) = DErr
  | DFrame f n => (0 < n <= length b)%nat /\ forall d, dec_buffer maxsz (b ++ d) = DFrame f n
  end.
Proof.
  destruct b as [|fl t]; [exact I|]. cbn [app]. unfold dec_buffer. cbn [length].
  destruct (S (length t) <? hdr_len fl)%nat eqn:E1; [exact I|].
  assert (forall d, (S (length (t ++ d)) <? hdr_len fl)%nat = false) as Hl by (intros d; rewrite app_length; lia).
  assert (forall d, raw_size fl (fl :: t ++ d) = raw_size fl (fl :: t)) as Hr by (intros d; apply raw_size_app; lia).
  destruct (over_limit maxsz (raw_size fl (fl :: t))) eqn:Eo.
  { intros d. rewrite Hl, Hr, Eo. reflexivity. }
  destruct (N.of_nat (S (length t) - hdr_len fl) <? raw_size fl (fl :: t)) eqn:E2; [exact I|]. split.
  - unfold hdr_len in *. destruct (is_long fl); lia.
  - intros d. rewrite Hl, Hr, Eo.
    assert (N.of_nat (S (length (t ++ d)) - hdr_len fl) <? raw_size fl (fl :: t) = false) as ->
      by (rewrite app_length; lia).
    change (fl :: t ++ d) with ((fl :: t) ++ d).
    rewrite skipn_app_le, firstn_app_le by (rewrite ?skipn_length; cbn [length]; lia). reflexivity.
Qed.

Lemma dec_buffer_app maxsz b d : dec_buffer maxsz b <> DNeed -> dec_buffer maxsz (b ++ d) = dec_buffer maxsz b.
Proof.
  pose proof (dec_buffer_cases maxsz b) as H.
  destruct (dec_buffer maxsz b); intros; [congruence | apply H | contradiction | apply H].
Qed.
Lemma dec_buffer_consumed maxsz b f n : dec_buffer maxsz b = DFrame f n -> (0 < n <= length b)%nat.
Proof. intros E. pose proof (dec_buffer_cases maxsz b) as H. rewrite E in H. apply H. Qed.
Lemma dec_buffer_no_panic maxsz b : dec_buffer maxsz b <> DPanic.
Proof. intros E. pose proof (dec_buffer_cases maxsz b) as H. rewrite E in H. exact H. Qed.

Lemma buffer_ok m : stepper_ok (buffer_step m) buffer_mu 1.
Proof.
  apply stepper_ok_intro; intros s b; unfold buffer_step; destruct s; try easy.
  - intros d s' n o. destruct (dec_buffer m b) eqn:E; try discriminate; rewrite dec_buffer_app, E by congruence; auto.
  - destruct (dec_buffer m b) eqn:E; try exact I; cbn [buffer_mu]; [lia|].
    apply dec_buffer_consumed in E. lia.
Qed.

Lemma tokio_ok : stepper_ok tokio_step tokio_mu 1.
Proof.
  apply stepper_ok_intro; intros s b; unfold tokio_step; destruct s as [|fl size|]; try easy.
  - intros d s' n o. destruct b as [|fl t]; [discriminate|]. cbn [app length].
    destruct (S (length t) <? hdr_len fl)%nat eqn:E1; [discriminate|].
    rewrite app_length, raw_size_app by lia.
    destruct (S (length t + length d) <? hdr_len fl)%nat eqn:E2; [lia|]. auto.
  - intros d s' n o. unfold len. rewrite app_length.
    destruct (N.of_nat (length b) <? size) eqn:E; [discriminate|].
    destruct (N.of_nat (length b + length d) <? size) eqn:E2; [lia|].
    rewrite firstn_app_le by lia. auto.
  - destruct b as [|fl t]; [exact I|].
    destruct (length (fl :: t) <? hdr_len fl)%nat eqn:E1; [exact I|].
    assert (0 < hdr_len fl)%nat by (unfold hdr_len; destruct (is_long fl); lia).
    destruct (CODEC_MAX_FRAME_SIZE <? _); cbn [tokio_mu]; lia.
  - unfold len. destruct (N.of_nat (length b) <? size) eqn:E; [exact I|]. cbn [tokio_mu]. lia.
Qed.

Lemma run_buffer_frames m fs : Forall (admitted m) fs -> forall rest s' r o,
  Run (buffer_step m) false rest s' r o ->
  Run (buffer_step m) false (concat (map enc_codec fs) ++ rest) s' r (map Some fs ++ o).
Proof.
  induction 1 as [|f fs Hf Hfs IH]; intros rest s' r o HR; [exact HR|].
  cbn [map concat]. rewrite <- app_assoc.
  eapply (RunStep_app [Some f]); [|apply IH; exact HR].
  unfold buffer_step. rewrite dec_buffer_enc by exact Hf. reflexivity.
Qed.

Definition admitted_tokio (f : frame) : Prop := len (f_payload f) <= CODEC_MAX_FRAME_SIZE.

Lemma tokio_header f rest : admitted_tokio f ->
  tokio_step TReadHeader (enc_codec f ++ rest) =
  Step (TReadBody (flags_byte (f_more f) (f_cmd f) (negb (len (f_payload f) <=? 255))) (len (f_payload f)))
       (length (enc_header_only f)) [].
Proof.
  intros Ha. unfold admitted_tokio in Ha. destruct f as [m c p]. cbn [f_payload f_more f_cmd] in *.
  assert (len p < U64) as Hf by (unfold CODEC_MAX_FRAME_SIZE, U64 in *; lia).
  destruct (enc_header_parse m c (len p) _ Hf eq_refl) as (t & Eh & Hh & Hr).
  unfold enc_codec, enc_header_only. cbn [f_more f_cmd f_payload]. rewrite Eh, <- app_assoc. cbn [app].
  unfold tokio_step. rewrite Hh, Hr. cbn [length]. rewrite app_length.
  destruct (S (length t + length (p ++ rest)) <? S (length t))%nat eqn:E; [lia|].
  destruct (CODEC_MAX_FRAME_SIZE <? len p) eqn:E2; [lia|]. reflexivity.
Qed.

Lemma run_tokio_frames fs : Forall admitted_tokio fs -> forall rest s' r o,
  Run tokio_step TReadHeader rest s' r o ->
  Run tokio_step TReadHeader (concat (map enc_codec fs) ++ rest) s' r (map Some fs ++ o).
Proof.
  induction 1 as [|f fs Hf Hfs IH]; intros rest s' r o HR; [exact HR|].
  cbn [map concat]. rewrite <- app_assoc. unfold enc_codec at 1. rewrite <- app_assoc.
  eapply (RunStep_app []); [rewrite app_assoc; apply tokio_header; exact Hf|].
  eapply (RunStep_app [Some f]); [|apply IH; exact HR].
  unfold tokio_step, len. rewrite app_length.
  destruct (N.of_nat (length (f_payload f) + length (concat (map enc_codec fs) ++ rest))
            <? N.of_nat (length (f_payload f))) eqn:E; [lia|].
  rewrite Nat2N.id, (proj1 (firstn_skipn_app _ (f_payload f) _ eq_refl)), mk_frame_flags.
  destruct f; reflexivity.
Qed.

Definition no_overflow (buf : bytes) : Prop :=
  match buf with
  | [] => True
  | fl :: _ => (length buf < hdr_len fl)%nat \/ N.of_nat (hdr_len fl) + raw_size fl buf < U64
  end.

Theorem dec_slice_agrees chk m buf : no_overflow buf -> dec_slice chk m buf = dec_buffer m buf.
Proof.
  unfold no_overflow, dec_slice, dec_buffer. destruct buf as [|fl t]; [reflexivity|].
  intros Hno.
  destruct (length (fl :: t) <? 2)%nat eqn:E2.
  { assert (length (fl :: t) <? hdr_len fl = true)%nat as ->; [|reflexivity].
    unfold hdr_len. destruct (is_long fl); lia. }
  destruct (length (fl :: t) <? hdr_len fl)%nat eqn:E; [reflexivity|].
  destruct Hno as [Hno|Hno]; [lia|].
  destruct (over_limit m (raw_size fl (fl :: t))); [reflexivity|].
  set (raw := raw_size fl (fl :: t)) in *.
  destruct (U64 <=? N.of_nat (hdr_len fl) + raw) eqn:EU; [lia|].
  unfold len.
  destruct (N.of_nat (length (fl :: t)) <? N.of_nat (hdr_len fl) + raw) eqn:E3;
  destruct (N.of_nat (length (fl :: t) - hdr_len fl) <? raw) eqn:E4; try lia; try reflexivity.
  f_equal. lia.
Qed.

(* outside the guard: the checked build panics, the unchecked build wraps and then either
   asks for more or panics on the slice; it never yields a frame *)
Theorem dec_slice_overflow chk m buf fl t :
  buf = fl :: t -> (hdr_len fl <= length buf)%nat -> len buf < U64 ->
  U64 <= N.of_nat (hdr_len fl) + raw_size fl buf -> over_limit m (raw_size fl buf) = false ->
  dec_slice chk m buf = (if chk then DPanic else
     if len buf <? (N.of_nat (hdr_len fl) + raw_size fl buf) mod U64 then DNeed else DPanic)
  /\ dec_buffer m buf = DNeed.
Proof.
  intros -> Hh Hlen Ho Hl. unfold dec_slice, dec_buffer.
  assert (length (fl :: t) <? 2 = false)%nat as ->.
  { unfold hdr_len in Hh. destruct (is_long fl); lia. }
  assert (length (fl :: t) <? hdr_len fl = false)%nat as -> by lia.
  rewrite Hl. assert (U64 <=? N.of_nat (hdr_len fl) + raw_size fl (fl :: t) = true) as -> by lia.
  split; [reflexivity|].
  unfold len in Hlen.
  assert (N.of_nat (length (fl :: t) - hdr_len fl) <? raw_size fl (fl :: t) = true) as -> by lia.
  reflexivity.
Qed.

Theorem peek_len_agrees chk m buf f k : no_overflow buf ->
  dec_buffer m buf = DFrame f k -> peek_len chk m buf = PLen (N.of_nat k).
Proof.
  unfold no_overflow, peek_len, dec_buffer. destruct buf as [|fl t]; [discriminate|].
  intros Hno.
  destruct (length (fl :: t) <? hdr_len fl)%nat eqn:E; [discriminate|].
  destruct Hno as [Hno|Hno]; [lia|].
  destruct (over_limit m (raw_size fl (fl :: t))); [discriminate|].
  set (raw := raw_size fl (fl :: t)) in *.
  destruct (N.of_nat (length (fl :: t) - hdr_len fl) <? raw) eqn:E4; [discriminate|].
  intros H; inversion H; subst.
  destruct (U64 <=? N.of_nat (hdr_len fl) + raw) eqn:EU; [lia|]. f_equal. lia.
Qed.

Theorem peek_len_need_err chk m buf : no_overflow buf ->
  (peek_len chk m buf = PErr <-> dec_buffer m buf = DErr) /\
  (peek_len chk m buf = PNeed -> dec_buffer m buf = DNeed) /\
  peek_len chk m buf <> PPanic.
Proof.
  unfold no_overflow, peek_len, dec_buffer. destruct buf as [|fl t].
  { intros _. repeat split; try discriminate; auto. }
  intros Hno.
  destruct (length (fl :: t) <? hdr_len fl)%nat eqn:E.
  { repeat split; try discriminate; auto. }
  destruct Hno as [Hno|Hno]; [lia|].
  destruct (over_limit m (raw_size fl (fl :: t))).
  { repeat split; try discriminate; auto. }
  set (raw := raw_size fl (fl :: t)) in *.
  destruct (U64 <=? N.of_nat (hdr_len fl) + raw) eqn:EU; [lia|].
  destruct (N.of_nat (length (fl :: t) - hdr_len fl) <? raw) eqn:E4; repeat split; try discriminate; auto.
Qed.
