(* Waker layer: the ready channel wakes ONE waiting consumer per push.  A pop() future dropped
   after it was woken (and before it was polled) swallows that wake-up (the witness is
   C08_wake_cancel_refuted); outside that class (or with a single consumer) a non-empty ready list
   always has a woken consumer: WI is kept by wstep, and implies it. *)
From RZ Require Import Base.Prelude Model.Rpq Model.RpqWake Proofs.RpqProofs.

Fixpoint wsum (f : nat -> bool) (n : nat) : nat :=
  match n with O => 0 | S k => wsum f k + (if f k then 1 else 0) end.

Lemma wsum_upd_ge f i v n : n <= i -> wsum (upd f i v) n = wsum f n.
Proof. induction n as [|n IH]; intros H; [reflexivity|]. cbn [wsum]. rewrite IH, upd_neq by lia. reflexivity. Qed.
Lemma wsum_upd f i v n : i < n ->
  wsum (upd f i v) n + (if f i then 1 else 0) = wsum f n + (if v then 1 else 0).
Proof.
  induction n as [|n IH]; intros H; [lia|]. cbn [wsum]. destruct (Nat.eq_dec i n) as [->|Hne].
  - rewrite wsum_upd_ge, upd_eq by lia. lia.
  - specialize (IH ltac:(lia)). rewrite upd_neq by lia. lia.
Qed.
Lemma wsum_pos_exists f n : 0 < wsum f n -> exists j, j < n /\ f j = true.
Proof.
  induction n as [|n IH]; cbn [wsum]; intros H; [lia|]. destruct (f n) eqn:E; [exists n; split; [lia|exact E]|].
  destruct IH as (j & Hj & Hf); [lia|]. exists j. split; [lia|exact Hf].
Qed.

Lemma in_remove_nat i j l : In j (remove_nat i l) <-> In j l /\ j <> i.
Proof. unfold remove_nat. rewrite filter_In, negb_true_iff, Nat.eqb_neq. reflexivity. Qed.
Lemma remove_nat_notin i l : ~ In i l -> remove_nat i l = l.
Proof.
  induction l as [|x l IH]; intros H; [reflexivity|]. unfold remove_nat in *. cbn [filter].
  destruct (Nat.eqb_spec x i) as [->|Hne]; [exfalso; apply H; left; reflexivity|]. cbn [negb].
  rewrite IH; [reflexivity|]. intros Hi. apply H. right. exact Hi.
Qed.
Lemma nodup_snoc (l : list nat) i : NoDup l -> ~ In i l -> NoDup (l ++ [i]).
Proof.
  induction l as [|x l IH]; intros Hn Hi; cbn [app]; [constructor; [intros []|constructor]|].
  inversion Hn as [|? ? Hx Hd]; subst. constructor.
  - intros Hin. apply in_app_or in Hin as [Hin|[E|[]]]; [contradiction|]. apply Hi. left. symmetry. exact E.
  - apply IH; [exact Hd|]. intros H. apply Hi. right. exact H.
Qed.

(* The monitor's invariant looks at the queue state only through which of the n consumers are parked
   in recv() (P) and how long the ready list is (len). *)
Record WInv (n : nat) (P : nat -> bool) (len : nat) (w : wk) : Prop := mkWInv {
  (* registered waiters are parked consumers that have not been notified *)
  w_reg : forall i, In i (waiters w) -> i < n /\ P i = true /\ woken w i = false;
  w_nd : NoDup (waiters w);
  (* notified consumers are parked *)
  w_wok : forall i, woken w i = true -> i < n /\ P i = true;
  (* a parked consumer is registered or notified *)
  w_cov : forall i, i < n -> P i = true -> In i (waiters w) \/ woken w i = true;
  (* while somebody is still waiting un-notified, every ready entry has a notified consumer *)
  w_cnt : waiters w <> [] -> len <= wsum (woken w) n
}.

Lemma is_cwait_eq pc : is_cwait pc = true <-> pc = CWait.
Proof. destruct pc; cbn; split; intros; try discriminate; reflexivity. Qed.

Definition waits (s : st) (i : nat) : bool := is_cwait (cons s i).
Definition WI (c : cfg) (s : st) (w : wk) : Prop := WInv (nc c) (waits s) (length (ready s)) w.

Lemma winv_ext n P P' len len' w : WInv n P len w -> (forall j, P' j = P j) -> len' <= len -> WInv n P' len' w.
Proof. intros [R N W C K] HP Hl. constructor; intros; rewrite ?HP in *; auto. specialize (K H). lia. Qed.

(* a push: the first registered waiter (if any) is notified *)
Lemma winv_push n P len w : WInv n P len w -> WInv n P (S len) (wk_push w).
Proof.
  intros [R N W C K]. unfold wk_push. destruct (waiters w) as [|i r] eqn:Ew.
  - constructor; rewrite ?Ew; auto. congruence.
  - destruct (R i (or_introl eq_refl)) as (Hi & Hpi & Hwi). inversion N as [|? ? Hni Hnd]; subst.
    constructor; cbn [waiters woken].
    + intros j Hj. destruct (R j (or_intror Hj)) as (A & B & D). repeat split; auto.
      rewrite upd_neq; [exact D|]. intros ->. contradiction.
    + exact Hnd.
    + intros j Hj. unfold upd in Hj. destruct (Nat.eqb_spec j i) as [E|E]; [subst j|]; auto.
    + intros j Hj Hp. unfold upd. destruct (Nat.eqb_spec j i) as [E|Hne]; [right; reflexivity|].
      destruct (C j Hj Hp) as [[E|Hin]|Hk]; [congruence|left; exact Hin|right; exact Hk].
    + (* lia on a cleared context, here and below: its preprocessing walks over every hypothesis *)
      intros _. pose proof (wsum_upd (woken w) i true n Hi) as Hs. rewrite Hwi in Hs.
      assert (len <= wsum (woken w) n) by (apply K; discriminate). clear - Hs H. lia.
Qed.

(* the ready list grew by at most one entry: the monitor pushes iff it grew *)
Lemma winv_grow n P len len' w : WInv n P (Nat.min len len') w -> len' <= S len ->
  WInv n P len' (if len <? len' then wk_push w else w).
Proof.
  intros HW Hl. destruct (Nat.ltb_spec len len').
  - replace len' with (S (Nat.min len len')) by lia. apply winv_push, HW.
  - rewrite Nat.min_r in HW by assumption. exact HW.
Qed.

(* consumer i is no longer parked; the monitor forgets it *)
Lemma winv_leave n P P' len len' w i : WInv n P len w -> i < n -> (forall j, j <> i -> P' j = P j) -> P' i = false ->
  len' + (if woken w i then 1 else 0) <= len \/ n <= 1 ->
  WInv n P' len' (mkWk (remove_nat i (waiters w)) (upd (woken w) i false)).
Proof.
  intros [R N W C K] Hi HP Hpi Hl. constructor; cbn [waiters woken].
  - intros j Hj. apply in_remove_nat in Hj as [Hj Hne]. rewrite HP, upd_neq by exact Hne. auto.
  - apply NoDup_filter, N.
  - intros j Hj. unfold upd in Hj. destruct (Nat.eqb_spec j i); [discriminate|]. rewrite HP by assumption. auto.
  - intros j Hj Hp. destruct (Nat.eq_dec j i) as [->|Hne]; [congruence|]. rewrite HP in Hp by exact Hne.
    rewrite upd_neq by exact Hne. destruct (C j Hj Hp) as [Hin|Hk]; [left; apply in_remove_nat; auto|right; exact Hk].
  - intros Hne. destruct Hl as [Hl|H1].
    + assert (Hw : waiters w <> []) by (intros E; rewrite E in Hne; apply Hne; reflexivity).
      specialize (K Hw). pose proof (wsum_upd (woken w) i false n Hi) as Hs. clear - K Hs Hl. destruct (woken w i); lia.
    + exfalso. destruct (remove_nat i (waiters w)) as [|j l] eqn:El; [apply Hne; reflexivity|].
      assert (Hj : In j (remove_nat i (waiters w))) by (rewrite El; left; reflexivity).
      apply in_remove_nat in Hj as [Hj Hji]. destruct (R j Hj) as (A & _). clear - A H1 Hi Hji. lia.
Qed.

(* consumer i parks on the empty ready list: it registers at the back *)
Lemma winv_park n P P' len w i : WInv n P len w -> i < n -> (forall j, j <> i -> P' j = P j) -> P' i = true ->
  WInv n P' 0 (mkWk (remove_nat i (waiters w) ++ [i]) (upd (woken w) i false)).
Proof.
  intros [R N W C K] Hi HP Hpi. constructor; cbn [waiters woken].
  - intros j Hj. apply in_app_or in Hj as [Hj|[<-|[]]].
    + apply in_remove_nat in Hj as [Hj Hne]. rewrite HP, upd_neq by exact Hne. auto.
    + rewrite upd_eq. auto.
  - apply nodup_snoc; [apply NoDup_filter, N|rewrite in_remove_nat; tauto].
  - intros j Hj. unfold upd in Hj. destruct (Nat.eqb_spec j i); [discriminate|]. rewrite HP by assumption. auto.
  - intros j Hj Hp. destruct (Nat.eq_dec j i) as [->|Hne]; [left; apply in_or_app; right; left; reflexivity|].
    rewrite HP in Hp by exact Hne. rewrite upd_neq by exact Hne.
    destruct (C j Hj Hp) as [Hin|Hw']; [left; apply in_or_app; left; apply in_remove_nat; auto|right; exact Hw'].
  - intros _. lia.
Qed.

Lemma winv_others c s s' w : WI c s w -> (forall j, cons s' j = cons s j) -> length (ready s') <= S (length (ready s)) ->
  WI c s' (if length (ready s) <? length (ready s') then wk_push w else w).
Proof.
  intros HW Hc Hl. apply winv_grow; [|exact Hl].
  apply (winv_ext _ _ _ _ _ _ HW); [intros j; unfold waits; rewrite Hc; reflexivity|lia].
Qed.

Lemma pcancel_frame s p s' : pcancel s p = Some s' -> (forall j, cons s' j = cons s j) /\ ready s' = ready s.
Proof. intros H. destruct (pcancel_some s p s' H) as [(x & _ & ->)|(_ & ->)]; split; reflexivity. Qed.

Lemma ccancel_frame s i s' : ccancel s i = Some s' ->
  (forall j, j <> i -> cons s' j = cons s j) /\ ready s' = ready s /\ cons s' i = CIdle.
Proof.
  intros H. destruct (ccancel_some s i s' H) as (-> & _). simp_st.
  split; [intros j Hj; apply upd_neq, Hj|split; [reflexivity|apply upd_eq]].
Qed.

(* a parked consumer moves only by taking an entry *)
Lemma cstep_wake c s i s' : cstep c s i = Some s' -> cons s i = CWait -> exists q, ready s = q :: ready s'.
Proof.
  unfold cstep. intros H E. rewrite E in H. destruct (ready s) as [|q rd]; [discriminate|]. injection H as <-. exists q. reflexivity.
Qed.

(* the event drops a pop() future between its wake-up and its next poll *)
Definition bad_cancel (w : wk) (e : ev) : bool := match e with CancelC i => woken w i | _ => false end.

Lemma winv_wstep c s w e : WI c s w -> bad_cancel w e = false \/ nc c <= 1 ->
  WI c (fst (wstep c (s, w) e)) (snd (wstep c (s, w) e)).
Proof.
  intros HW Hb. destruct e as [p|i|p|i|p]; cbn [wstep step].
  - destruct (p <? np c); [|exact HW]. destruct (pstep c s p) as [s'|] eqn:Es; [|exact HW]. cbn [fst snd]; unfold wk_step.
    destruct (pstep_move c s p s' Es) as (w0 & rd' & n & dq & dr & pc' & M & L).
    apply (winv_others c s s' w HW); [intros j; rewrite (mv_cons M); reflexivity|].
    rewrite (mv_ready M). exact (ready_law_length _ _ _ _ (pl_ready L)).
  - destruct (c_asleep s w i) eqn:Ea; [exact HW|]. unfold c_asleep in Ea. fold (waits s i) in *.
    destruct (Nat.ltb_spec i (nc c)) as [Hi|Hi]; [|rewrite andb_false_r; exact HW].
    destruct (cstep c s i) as [s'|] eqn:Es; cbn [fst snd]; unfold wk_step.
    + destruct (cstep_move c s i s' Es) as (q & l & rd' & n & dq & dr & pc' & M & L).
      pose proof (mv_cons M) as Mc.
      assert (HP : forall j, j <> i -> waits s' j = waits s j)
        by (intros j Hj; unfold waits; rewrite Mc, upd_neq by exact Hj; reflexivity).
      assert (Hpc : waits s' i = is_cwait pc') by (unfold waits; rewrite Mc, upd_eq; reflexivity).
      fold (waits s' i) (waits s i).
      apply winv_grow; rewrite (mv_ready M); [|exact (ready_law_length _ _ _ _ (cl_ready L))].
      destruct (waits s' i) eqn:P'; [|destruct (waits s i) eqn:P0].
      * (* it parks: only on the empty list *)
        destruct (cl_park L (proj1 (is_cwait_eq _) (eq_sym Hpc))) as [-> ->].
        exact (winv_park _ _ _ _ _ _ HW Hi HP P').
      * (* it was parked and woken: it takes an entry *)
        destruct (cstep_wake c s i s' Es (proj1 (is_cwait_eq _) P0)) as (q0 & R).
        apply (winv_leave _ _ _ _ _ _ _ HW Hi HP P'). left. rewrite R, (mv_ready M). cbn [length].
        clear. destruct (woken w i); lia.
      * apply (winv_ext _ _ _ _ _ _ HW); [|clear; lia]. intros j. destruct (Nat.eq_dec j i) as [->|Hj]; [congruence|auto].
    + (* woken, but another consumer took the entry first: it parks again *)
      destruct (waits s i) eqn:P0; cbn [andb fst snd]; [|exact HW].
      unfold cstep in Es. rewrite (proj1 (is_cwait_eq _) P0) in Es. unfold WI.
      destruct (ready s); [|discriminate]. exact (winv_park _ _ _ _ _ _ HW Hi (fun j _ => eq_refl) P0).
  - destruct (p <? np c); [|exact HW]. destruct (pcancel s p) as [s'|] eqn:Es; [|exact HW]. cbn [fst snd]; unfold wk_step.
    destruct (pcancel_frame s p s' Es) as (Hc & Hr). apply (winv_others c s s' w HW Hc). rewrite Hr. lia.
  - destruct (Nat.ltb_spec i (nc c)) as [Hi|Hi]; [|exact HW].
    destruct (ccancel s i) as [s'|] eqn:Es; [|exact HW]. cbn [fst snd]; unfold wk_step.
    destruct (ccancel_frame s i s' Es) as (Hc & Hr & Hn).
    assert (HP : forall j, j <> i -> waits s' j = waits s j)
      by (intros j Hj; unfold waits; rewrite Hc by exact Hj; reflexivity).
    assert (P' : waits s' i = false) by (unfold waits; rewrite Hn; reflexivity).
    fold (waits s i). apply winv_grow; rewrite Hr; [rewrite Nat.min_id|lia]. destruct (waits s i) eqn:P0.
    + apply (winv_leave _ _ _ _ _ _ _ HW Hi HP P'). destruct Hb as [Hb|Hb]; [left|right; exact Hb].
      cbn [bad_cancel] in Hb. rewrite Hb. lia.
    + apply (winv_ext _ _ _ _ _ _ HW); [|lia]. intros j. destruct (Nat.eq_dec j i) as [->|Hj]; [congruence|auto].
  - cbn [fst snd]; unfold wk_step. apply (winv_others c s _ w HW); [intros j; reflexivity|simp_st; lia].
Qed.

Fixpoint no_woken_cancel (c : cfg) (sw : st * wk) (es : list ev) : Prop :=
  match es with
  | [] => True
  | e :: r => bad_cancel (snd sw) e = false /\ no_woken_cancel c (wstep c sw e) r
  end.

Lemma winv_wrun c es : forall sw, WI c (fst sw) (snd sw) -> no_woken_cancel c sw es \/ nc c <= 1 ->
  WI c (fst (wrun c es sw)) (snd (wrun c es sw)).
Proof.
  induction es as [|e es IH]; intros [s w] HW Hb; [exact HW|]. cbn [wrun fold_left]. apply IH.
  - apply winv_wstep; [exact HW|]. destruct Hb as [[Hb _]|Hb]; [left; exact Hb|right; exact Hb].
  - destruct Hb as [[_ Hb]|Hb]; [left; exact Hb|right; exact Hb].
Qed.

(* under the invariant, a non-empty ready list and a sleeping consumer imply a woken one *)
Lemma winv_not_lost c s w : WI c s w -> wake_lost c (s, w) = false.
Proof.
  intros HW. unfold wake_lost. destruct (ready s) as [|q rd] eqn:Er; [reflexivity|]. cbn [negb andb].
  destruct (existsb (fun i => c_asleep s w i) (seq 0 (nc c))) eqn:Ex; [|reflexivity]. cbn [andb].
  apply existsb_exists in Ex as (i & Hin & Ha). apply in_seq in Hin. unfold c_asleep in Ha.
  apply andb_true_iff in Ha as [Ha Hnw]. apply negb_true_iff in Hnw.
  destruct (w_cov _ _ _ _ HW i ltac:(clear - Hin; lia) Ha) as [Hw|Hw]; [|congruence].
  assert (Hne : waiters w <> []) by (intros E; rewrite E in Hw; destruct Hw).
  pose proof (w_cnt _ _ _ _ HW Hne) as Hk. rewrite Er in Hk. cbn [length] in Hk.
  destruct (wsum_pos_exists (woken w) (nc c)) as (j & Hj & Hwj); [clear - Hk; lia|].
  destruct (w_wok _ _ _ _ HW j Hwj) as (_ & Hcj). unfold waits in Hcj.
  apply andb_false_iff. right. apply not_true_iff_false. intros Hall.
  rewrite forallb_forall in Hall. specialize (Hall j ltac:(apply in_seq; clear - Hj; lia)).
  apply negb_true_iff in Hall. unfold w_runnable in Hall. rewrite Hcj in Hall.
  apply Nat.ltb_lt in Hj. rewrite Hj, Hwj in Hall. discriminate.
Qed.

Lemma winv_init c pp cp : WI c (init pp cp) wk0.
Proof. constructor; cbn [wk0 waiters woken]; intros; try contradiction; try discriminate; constructor. Qed.

(* the waker-aware run only visits states of the abstract model (some events are no-ops) *)
Lemma wstep_fst c s w e : fst (wstep c (s, w) e) = s \/ fst (wstep c (s, w) e) = step' c s e.
Proof.
  unfold step'. destruct e; cbn [wstep];
    try (destruct (c_asleep s w i); [left; reflexivity|]);
    destruct (step c s _); cbn [fst]; auto;
    destruct (is_cwait (cons s i) && (i <? nc c)); cbn [fst]; auto.
Qed.
