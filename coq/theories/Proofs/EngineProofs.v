(* Model/Engine.v in four steps: [estep] meets the obligations of Base/Stepper.v (engine_ok); its Step results as a
   relation with one constructor per handler transition (etrans, estep_cases), on which the safety, security and
   heartbeat files do their case analyses; network reads as a feed over the stepper (nets: independence of the cuts,
   prefix monotonicity, Closed is absorbing); the data phase delivers whole messages (data_phase_delivers). *)
From RZ Require Import Base.Prelude Base.Stepper Model.Codec Proofs.CodecProofs Model.Engine.
Local Open Scope N_scope.

Lemma long_enough_app (b d : bytes) k : (length b <? k)%nat = false ->
  (length (b ++ d) <? k)%nat = false /\ firstn k (b ++ d) = firstn k b /\
  forall i, (i < k)%nat -> nth i (b ++ d) 0 = nth i b 0.
Proof.
  intros H%Nat.ltb_ge. split; [|split].
  - apply Nat.ltb_ge. rewrite app_length. lia.
  - apply firstn_app_le. exact H.
  - intros i Hi. apply app_nth1. lia.
Qed.

(* cases on the next length test of [estep]; on a too short buffer estep answers Need, which [easy] settles *)
Ltac len_test H :=
  match goal with
  | |- context [(length ?b <? ?k)%nat] =>
      destruct (length b <? k)%nat eqn:H; [easy | ]
  end.

Lemma estep_mono cfg : step_mono (estep cfg).
Proof.
  intros st b d st' n o. unfold estep.
  pose proof (dec_buffer_app (c_maxsz cfg) b d) as Hdec.
  destruct (e_phase st); try discriminate.
  - destruct (negb (e_rev_sent st)); [|destruct (e_version st) as [[|]|]; try discriminate].
    + len_test H. destruct (long_enough_app b d _ H) as (-> & _ & Hn). rewrite !Hn by lia. auto.
    + len_test H. destruct (long_enough_app b d _ H) as (-> & -> & _). auto.
    + len_test H. destruct (long_enough_app b d _ H) as (-> & _ & Hn). rewrite !Hn by lia.
      destruct (3 <=? nth 10 b 0); [auto|].
      destruct (nth 10 b 0 =? 1); [|auto].
      destruct (negb (c_allow_v2 cfg)); [auto|].
      destruct (c_sec_enabled cfg); [auto|].
      len_test H'. destruct (long_enough_app b d _ H') as (-> & _ & Hn'). rewrite !Hn' by lia. auto.
  - destruct (m_produce cfg (e_mech st)) as [m' [ | tok | ]]; auto.
    destruct (mech_complete (e_mech st)); auto.
    destruct (dec_buffer _ b) eqn:E; try discriminate; rewrite Hdec by congruence; auto.
  - destruct (dec_buffer _ b) eqn:E; try discriminate; rewrite Hdec by congruence; auto.
  - destruct (negb (e_v2_sent st)); auto.
    destruct (dec_buffer _ b) eqn:E; try discriminate; rewrite Hdec by congruence; auto.
  - destruct (dec_buffer _ b) eqn:E; try discriminate; rewrite Hdec by congruence; auto.
Qed.

Lemma emu_le st : (emu st <= EMU_MAX)%nat.
Proof.
  unfold emu, EMU_MAX.
  assert (mech_mu (e_mech st) <= 1)%nat by (destruct (e_mech st) as [|? []|[] [] ?]; cbn; lia).
  destruct (e_phase st), (e_rev_sent st), (e_v2_sent st); destruct (e_version st); lia.
Qed.

(* m_produce either does nothing or spends the mechanism's measure *)
Lemma produce_mu cfg m :
  match snd (m_produce cfg m) with
  | PrNone => fst (m_produce cfg m) = m
  | _ => (mech_mu (fst (m_produce cfg m)) < mech_mu m)%nat
  end.
Proof. destruct m as [|s []|[] [] f]; cbn [m_produce fst snd mech_mu]; lia || reflexivity. Qed.

(* what a micro-step from st on buffer b has to do: take bytes from the front of the buffer, or take none and
   lower [emu] (a flag set, a token sent, a phase left) *)
Definition progresses (st : estate) (b : bytes) (r : res estate eout) : Prop :=
  match r with
  | Need => True
  | Step st' n _ => (0 < n <= length b)%nat \/ (n = 0 /\ emu st' < emu st)%nat
  end.

(* four handlers read a frame in the same way: too few bytes ask for more, a malformed frame closes, a decoded
   frame takes its bytes, whatever the handler [k] goes on to do *)
Lemma on_frame_progress maxsz st b (k : frame -> nat -> res estate eout) :
  e_phase st <> PClosed -> (forall f n, exists st' o, k f n = Step st' n o) ->
  progresses st b (match dec_buffer maxsz b with
                   | DNeed | DPanic => Need
                   | DErr => fail0 st EProto
                   | DFrame f n => k f n
                   end).
Proof.
  intros Hp Hk. destruct (dec_buffer maxsz b) as [| | |f n] eqn:E; [exact I| |exact I|].
  - right. split; [reflexivity|]. unfold emu. cbn. destruct (e_phase st); [lia..|contradiction].
  - destruct (Hk f n) as (st' & o & ->). left. exact (dec_buffer_consumed _ _ _ _ E).
Qed.

Lemma estep_progress cfg st b : progresses st b (estep cfg st b).
Proof.
  destruct st as [ph v rs vs vp m p]. unfold estep.
  cbn [e_phase e_version e_rev_sent e_v2_sent e_mech e_partial].
  destruct ph; [| | | | |exact I].
  - destruct rs; cbn [negb]; [destruct v as [[|]|]; [exact I| |]|].
    + len_test H. destruct (greeting_decode _) as [[fld ?]|]; [|cbn; lia].
      destruct (negotiate cfg fld); [|cbn; lia]. destruct (mech_complete _); cbn; lia.
    + len_test H.
      destruct (3 <=? nth 10 b 0); [cbn; lia|].
      destruct (nth 10 b 0 =? 1), (negb (c_allow_v2 cfg)), (c_sec_enabled cfg); try (cbn; lia).
      len_test H'. destruct (negb (v2_compat _ _)); [|destruct (stype_code _)]; cbn; lia.
    + len_test H. destruct (_ && _); cbn; lia.
  - pose proof (produce_mu cfg m) as Hm. destruct (m_produce cfg m) as [m' [ | tok | ]]; cbn [fst snd] in Hm;
      try (cbn; lia).
    destruct (mech_complete m); [cbn; lia|].
    apply on_frame_progress; [discriminate|]. intros f n.
    destruct (m_process cfg m (f_payload f)) as [m'' [e|]]; [|destruct (mech_is_error m'')]; eauto.
  - apply on_frame_progress; [discriminate|]. intros f n.
    destruct (parse_cmd f); try destruct (ready_incompatible _ _); eauto.
  - destruct vs; cbn [negb]; [|cbn; lia].
    apply on_frame_progress; [discriminate|]. intros f n.
    destruct (f_cmd f || f_more f); [|destruct (255 <? length (f_payload f))%nat]; eauto.
  - apply on_frame_progress; [discriminate|]. intros f n. destruct (f_cmd f).
    + destruct v as [[|]|]; try destruct (parse_cmd f); eauto.
    + destruct (MAX_FRAMES <=? length p)%nat; [|destruct (f_more f)]; eauto.
Qed.

Lemma engine_ok cfg : stepper_ok (estep cfg) emu EMU_MAX.
Proof.
  apply stepper_ok_intro; [apply estep_mono|]. intros st b.
  pose proof (estep_progress cfg st b) as H. unfold progresses in H.
  destruct (estep cfg st b) as [|st' n o]; [exact I|]. pose proof (emu_le st'). lia.
Qed.

Lemma bytes_eqb_refl a : bytes_eqb a a = true.
Proof. induction a as [|x a IH]; cbn [bytes_eqb]; [reflexivity|]. rewrite IH, N.eqb_refl. reflexivity. Qed.

Lemma bytes_eqb_eq a : forall b, bytes_eqb a b = true -> a = b.
Proof.
  induction a as [|x a IH]; intros [|y b]; cbn; try discriminate; [reflexivity|].
  intros H. apply andb_true_iff in H. destruct H as [H1 H2]. apply N.eqb_eq in H1. subst. f_equal. auto.
Qed.

Lemma opt_bytes_eqb_eq o b : opt_bytes_eqb o b = true -> o = Some b.
Proof. destruct o as [x|]; [|discriminate]. intros H. apply bytes_eqb_eq in H. congruence. Qed.

(* security/mod.rs negotiate: NULL only without a configured mechanism; PLAIN and the opaque mechanisms start in
   their first state; every refusal is a security error *)
Lemma negotiate_cases cfg fld :
  match negotiate cfg fld with
  | inl m => (m = MNull /\ c_sec_enabled cfg = false) \/
             m = MPlain (c_server cfg) (if c_server cfg then PSExpectHello else PCSendHello) \/
             m = MOpaque (c_server cfg) false false
  | inr e => e = ESecurity
  end.
Proof.
  unfold negotiate. destruct (bytes_eqb fld (mech_field s_NULL)); [destruct (c_sec_enabled cfg); cbn; auto|].
  destruct (bytes_eqb _ _); [destruct (c_use_plain cfg); auto|].
  destruct (bytes_eqb _ _); [destruct (c_use_curve cfg), (c_opaque_ok cfg); auto|].
  destruct (bytes_eqb _ _); [destruct (c_use_noise cfg), (c_opaque_ok cfg); auto|reflexivity].
Qed.

(* plain.rs process_token: NULL ignores tokens, an opaque mechanism fails on any token from a peer without keys,
   PLAIN goes to Error except on the one token it expects: WELCOME for a client, a HELLO carrying the
   configured credentials for a server *)
Lemma process_cases cfg m tok :
  let (m', e) := m_process cfg m tok in
  match m with
  | MNull => m' = MNull /\ e = None
  | MOpaque s snt _ => m' = MOpaque s snt true /\ e = Some ESecurity
  | MPlain s ps =>
      (m' = MPlain s PError /\ (e = Some ESecurity \/ e = Some EAuth)) \/
      (e = None /\
       ((s = false /\ ps = PCExpectWelcome /\ m' = MPlain false PDone) \/
        (s = true /\ ps = PSExpectHello /\ m' = MPlain true PSSendWelcome /\
         exists cl r u p, tok = cl :: r /\ firstn (N.to_nat cl) r = s_HELLO /\
           parse_hello (skipn (N.to_nat cl) r) = Some (u, p) /\
           c_plain_user cfg = Some u /\ c_plain_pass cfg = Some p)))
  end.
Proof.
  destruct m as [|s ps|s snt f]; unfold m_process; auto.
  destruct tok as [|cl r]; [cbn; auto|].
  destruct (length r <? N.to_nat cl)%nat; [cbn; auto|].
  destruct s.
  - destruct ps; try (cbn; auto; fail).
    destruct (bytes_eqb _ s_HELLO) eqn:En; [|cbn; auto].
    destruct (parse_hello _) as [[u p]|] eqn:Eh; [|cbn; auto].
    destruct (opt_bytes_eqb (c_plain_user cfg) u) eqn:Eu; [|cbn; auto].
    destruct (opt_bytes_eqb (c_plain_pass cfg) p) eqn:Epw; [|cbn; auto].
    apply bytes_eqb_eq in En. apply opt_bytes_eqb_eq in Eu, Epw.
    right. split; [reflexivity|]. right. repeat split. exists cl, r, u, p. auto.
  - destruct ps; try (cbn; auto; fail).
    destruct (bytes_eqb _ s_WELCOME); [cbn; auto 6|].
    destruct (bytes_eqb _ s_ERROR); cbn; auto.
Qed.

Lemma process_err cfg m tok m' e : m_process cfg m tok = (m', Some e) -> e = ESecurity \/ e = EAuth.
Proof.
  intros H. pose proof (process_cases cfg m tok) as C. rewrite H in C.
  destruct m; [destruct C; discriminate| |destruct C as [_ [= <-]]; auto].
  destruct C as [[_ [[= <-]|[= <-]]]|[C _]]; auto; discriminate.
Qed.

(* One constructor per transition of the handlers in engine.rs, each with the facts about it that the safety,
   security and heartbeat arguments use; the number of bytes consumed is left out.
   Properties of single steps are proved by cases on this relation instead of unfolding [estep]. *)
Inductive etrans (cfg : ecfg) (st : estate) (b : bytes) : estate -> list eout -> Prop :=
| T_close e : e = EProto \/ e = ESecurity -> etrans cfg st b (closed st) [OErr e]
| T_close_data : e_phase st = PData -> etrans cfg st b (closed st) [OActivity; OErr EProto]
| T_sig : e_phase st = PGreeting ->
    etrans cfg st b {| e_phase := PGreeting; e_version := e_version st; e_rev_sent := true; e_v2_sent := e_v2_sent st;
                       e_v2_peer := e_v2_peer st; e_mech := e_mech st; e_partial := e_partial st |} [OSend [3] false]
| T_v3 : e_phase st = PGreeting ->
    etrans cfg st b {| e_phase := PGreeting; e_version := Some V3; e_rev_sent := true; e_v2_sent := e_v2_sent st;
                       e_v2_peer := e_v2_peer st; e_mech := e_mech st; e_partial := e_partial st |}
           [OSend (v3_tail cfg) false]
| T_v2 code peer : e_phase st = PGreeting -> c_sec_enabled cfg = false ->
    etrans cfg st b {| e_phase := PV2Identity; e_version := Some V2; e_rev_sent := true; e_v2_sent := e_v2_sent st;
                       e_v2_peer := peer; e_mech := e_mech st; e_partial := e_partial st |} [OSend [code] false]
| T_mech fld m : e_phase st = PGreeting -> e_version st = Some V3 -> negotiate cfg fld = inl m ->
    mech_complete m = false -> etrans cfg st b (set_phase (set_mech st m) PSecurity) []
| T_mech_done fld m : e_phase st = PGreeting -> e_version st = Some V3 -> negotiate cfg fld = inl m ->
    mech_complete m = true ->
    etrans cfg st b (set_phase (set_mech st m) PReady) (if c_server cfg then [] else [ready_send cfg])
| T_produce m' tok : e_phase st = PSecurity -> m_produce cfg (e_mech st) = (m', PrToken tok) ->
    etrans cfg st b (set_mech st m') [OSend (enc_codec (cmd_frame tok)) false]
| T_produce_opaque m' : e_phase st = PSecurity -> m_produce cfg (e_mech st) = (m', PrOpaque) ->
    etrans cfg st b (set_mech st m') [OSendOpaque]
| T_sec_done : e_phase st = PSecurity -> mech_complete (e_mech st) = true ->
    etrans cfg st b (set_phase st PReady) (if c_server cfg then [] else [ready_send cfg])
| T_token f n m' : e_phase st = PSecurity -> dec_buffer (c_maxsz cfg) b = DFrame f n ->
    m_process cfg (e_mech st) (f_payload f) = (m', None) -> etrans cfg st b (set_mech st m') []
| T_reject f n m' r e : e_phase st = PSecurity -> dec_buffer (c_maxsz cfg) b = DFrame f n ->
    m_process cfg (e_mech st) (f_payload f) = (m', r) -> e = ESecurity \/ e = EAuth ->
    etrans cfg st b (closed (set_mech st m')) [OErr e]
| T_ready ps : e_phase st = PReady ->
    etrans cfg st b (set_phase st PData)
           ((if c_server cfg then [ready_send cfg] else []) ++ [OActivity] ++ cork_out cfg ++
            [OHandshake (prop_get s_Identity ps) (prop_get s_SocketType ps)])
| T_v2_id : e_phase st = PV2Identity ->
    etrans cfg st b {| e_phase := PV2Identity; e_version := e_version st; e_rev_sent := e_rev_sent st; e_v2_sent := true;
                       e_v2_peer := e_v2_peer st; e_mech := e_mech st; e_partial := e_partial st |}
           [OSend (enc_codec (data_frame false (opt_or_empty (c_rid cfg)))) false]
| T_v2_ready id : e_phase st = PV2Identity ->
    etrans cfg st b (set_phase st PData) ([OActivity] ++ cork_out cfg ++ [OHandshake id (e_v2_peer st)])
| T_ping ctx : e_phase st = PData ->
    etrans cfg st b st [OActivity; OSend (enc_codec (cmd_frame (pong_body ctx))) false]
| T_pong : e_phase st = PData -> etrans cfg st b st [OActivity; OPongSeen]
| T_cmd : e_phase st = PData -> etrans cfg st b st [OActivity]
| T_more f : e_phase st = PData -> etrans cfg st b (set_partial st (e_partial st ++ [f])) [OActivity]
| T_deliver f : e_phase st = PData -> etrans cfg st b (set_partial st []) [OActivity; ODeliver (e_partial st ++ [f])].

Section Cases.
#[local] Hint Constructors etrans : core.

(* stated over every result of [estep], so that no leaf needs an injection: a Step is one of the transitions;
   more bytes are asked for only while a greeting stage or the frame decoder does *)
Lemma estep_cases cfg st b :
  match estep cfg st b with
  | Need => e_phase st = PClosed \/ (e_phase st = PGreeting /\ e_version st = Some V2) \/ (length b < 64)%nat \/
            dec_buffer (c_maxsz cfg) b = DNeed
  | Step st' _ o => etrans cfg st b st' o
  end.
Proof.
  pose proof (dec_buffer_no_panic (c_maxsz cfg) b) as Hnp.
  unfold estep, fail0. destruct (e_phase st) eqn:Ep; auto.
  - destruct (negb (e_rev_sent st)).
    + destruct (length b <? 10)%nat eqn:E; [right; right; left; lia|]. destruct (_ && _); eauto.
    + destruct (e_version st) as [[|]|] eqn:Ev; auto.
      * destruct (length b <? 64)%nat eqn:E; [right; right; left; lia|].
        destruct (greeting_decode _) as [[fld ?]|]; [|eauto].
        pose proof (negotiate_cases cfg fld) as Hn. destruct (negotiate cfg fld) as [m|e] eqn:En; [|eauto].
        destruct (mech_complete m) eqn:Ec; eauto.
      * destruct (length b <? 11)%nat eqn:E; [right; right; left; lia|].
        destruct (3 <=? nth 10 b 0); [eauto|].
        destruct (nth 10 b 0 =? 1); [|eauto].
        destruct (negb (c_allow_v2 cfg)); [eauto|].
        destruct (c_sec_enabled cfg) eqn:Es; [eauto|].
        destruct (length b <? 12)%nat eqn:E12; [right; right; left; lia|].
        destruct (negb (v2_compat _ _)); [eauto|].
        destruct (stype_code _); eauto.
  - destruct (m_produce cfg (e_mech st)) as [m' [ | tok | ]] eqn:Epr; eauto.
    destruct (mech_complete (e_mech st)) eqn:Ec; [eauto|].
    destruct (dec_buffer (c_maxsz cfg) b) as [| | |f k] eqn:Ed; eauto; [congruence|].
    destruct (m_process cfg (e_mech st) (f_payload f)) as [m'' [e|]] eqn:Epc.
    { pose proof (process_err _ _ _ _ _ Epc). eauto. }
    destruct (mech_is_error m''); eauto.
  - destruct (dec_buffer (c_maxsz cfg) b) as [| | |f k]; eauto; [congruence|].
    destruct (parse_cmd f); try destruct (ready_incompatible _ _); eauto.
  - destruct (negb (e_v2_sent st)); [eauto|].
    destruct (dec_buffer (c_maxsz cfg) b) as [| | |f k]; eauto; [congruence|].
    destruct (f_cmd f || f_more f); [eauto|].
    destruct (255 <? length (f_payload f))%nat; eauto.
  - destruct (dec_buffer (c_maxsz cfg) b) as [| | |f k]; eauto; [congruence|].
    destruct (f_cmd f).
    + destruct (e_version st) as [[|]|]; [eauto|destruct (parse_cmd f); eauto..].
    + destruct (MAX_FRAMES <=? length (e_partial st))%nat; [eauto|].
      destruct (f_more f); eauto.
Qed.

End Cases.

Lemma estep_etrans cfg st b st' n o : estep cfg st b = Step st' n o -> etrans cfg st b st' o.
Proof. intros H. pose proof (estep_cases cfg st b) as E. rewrite H in E. exact E. Qed.

Definition quiescent (cfg : ecfg) (g : engine) : Prop := estep cfg (g_st g) (g_acc g) = Need.

Fixpoint nets (cfg : ecfg) (g : engine) (cs : list (bytes * N)) : engine * list eout :=
  match cs with
  | [] => (g, [])
  | (d, t) :: rest =>
      let '(g1, o1) := e_net cfg g d t in
      let '(g2, o2) := nets cfg g1 rest in (g2, o1 ++ o2)
  end.

Lemma visible_app a b : visible (a ++ b) = visible a ++ visible b.
Proof. unfold visible. apply filter_app. Qed.

Lemma e_net_quiescent cfg g d t : quiescent cfg (fst (e_net cfg g d t)).
Proof.
  unfold e_net, quiescent.
  pose proof (sk_pump_quiescent (engine_ok cfg) (g_st g) (g_acc g ++ d)) as H.
  destruct (pump (estep cfg) emu EMU_MAX (g_st g) (g_acc g ++ d)) as [[st' r] o]. exact H.
Qed.

Lemma e_new_quiescent cfg t : quiescent cfg (e_new t).
Proof. reflexivity. Qed.

Lemma e_net_Run cfg g d t : exists o,
  Run (estep cfg) (g_st g) (g_acc g ++ d) (g_st (fst (e_net cfg g d t))) (g_acc (fst (e_net cfg g d t))) o /\
  snd (e_net cfg g d t) = visible o.
Proof.
  unfold e_net. pose proof (sk_pump_Run (engine_ok cfg) (g_st g) (g_acc g ++ d)) as HR.
  destruct (pump (estep cfg) emu EMU_MAX (g_st g) (g_acc g ++ d)) as [[st' r] o].
  exists o. split; [exact HR|reflexivity].
Qed.

Lemma nets_feed cfg : forall cs g,
  let '(g', o) := nets cfg g cs in
  let '(st, r, o') := feed (estep cfg) emu EMU_MAX (g_st g) (g_acc g) (map fst cs) in
  g_st g' = st /\ g_acc g' = r /\ o = visible o'.
Proof.
  induction cs as [|[d t] cs IH]; intros g.
  - cbn. auto.
  - cbn [nets map fst feed]. unfold e_net at 1.
    destruct (pump (estep cfg) emu EMU_MAX (g_st g) (g_acc g ++ d)) as [[st1 r1] o1].
    match goal with |- context [nets cfg ?g1 cs] => specialize (IH g1) end.
    cbn [g_st g_acc] in IH.
    destruct (nets cfg _ cs) as [g2 o2].
    destruct (feed (estep cfg) emu EMU_MAX st1 r1 (map fst cs)) as [[st2 r2] o2'].
    destruct IH as (-> & -> & ->). rewrite visible_app. auto.
Qed.

Lemma nets_Run cfg g (cs : list (bytes * N)) st r o' : quiescent cfg g ->
  Run (estep cfg) (g_st g) (g_acc g ++ concat (map fst cs)) st r o' ->
  let '(g', o) := nets cfg g cs in g_st g' = st /\ g_acc g' = r /\ o = visible o'.
Proof.
  intros Hq HR%(sk_Run_pump (engine_ok cfg)). pose proof (nets_feed cfg cs g) as H.
  rewrite (sk_feed_quiescent_start (engine_ok cfg)), HR in H by exact Hq. exact H.
Qed.

Theorem engine_chunk_independent cfg g cs1 cs2 :
  quiescent cfg g -> concat (map fst cs1) = concat (map fst cs2) ->
  let '(g1, o1) := nets cfg g cs1 in
  let '(g2, o2) := nets cfg g cs2 in
  g_st g1 = g_st g2 /\ g_acc g1 = g_acc g2 /\ o1 = o2.
Proof.
  intros Hq Hc.
  pose proof (sk_pump_Run (engine_ok cfg) (g_st g) (g_acc g ++ concat (map fst cs1))) as HR.
  destruct (pump _ _ _ _ _) as [[st r] o'].
  pose proof (nets_Run cfg g cs1 _ _ _ Hq HR) as H1. rewrite Hc in HR.
  pose proof (nets_Run cfg g cs2 _ _ _ Hq HR) as H2.
  destruct (nets cfg g cs1) as [g1 o1], (nets cfg g cs2) as [g2 o2].
  destruct H1 as (-> & -> & ->), H2 as (-> & -> & ->). auto.
Qed.

Lemma nets_one_read cfg g cs :
  quiescent cfg g -> snd (nets cfg g cs) = snd (e_net cfg g (concat (map fst cs)) 0).
Proof.
  intros Hq. pose proof (engine_chunk_independent cfg g cs [(concat (map fst cs), 0)] Hq) as H.
  cbn [map fst concat nets] in H. rewrite app_nil_r in H. specialize (H eq_refl).
  destruct (nets cfg g cs) as [g1 o1]. destruct (e_net cfg g _ 0) as [g2 o2].
  rewrite app_nil_r in H. apply H.
Qed.

Lemma nets_app cfg : forall a b g,
  nets cfg g (a ++ b) =
  (let '(g1, o1) := nets cfg g a in let '(g2, o2) := nets cfg g1 b in (g2, o1 ++ o2)).
Proof.
  induction a as [|[d t] a IH]; intros b g.
  - cbn. destruct (nets cfg g b). reflexivity.
  - cbn [app nets]. destruct (e_net cfg g d t) as [g1 o1]. rewrite IH.
    destruct (nets cfg g1 a) as [g2 o2]. destruct (nets cfg g2 b) as [g3 o3]. now rewrite app_assoc.
Qed.

Lemma nets_snoc cfg cs g d t :
  nets cfg g (cs ++ [(d, t)]) =
  (fst (e_net cfg (fst (nets cfg g cs)) d t), snd (nets cfg g cs) ++ snd (e_net cfg (fst (nets cfg g cs)) d t)).
Proof.
  rewrite nets_app. destruct (nets cfg g cs) as [g1 o1]. cbn [nets fst snd].
  destruct (e_net cfg g1 d t) as [g2 o2]. rewrite app_nil_r. reflexivity.
Qed.

(* a Closed engine stays Closed and emits nothing, however much more it is fed *)
Lemma estep_closed cfg st b : e_phase st = PClosed -> estep cfg st b = Need.
Proof. intros H. unfold estep. rewrite H. reflexivity. Qed.

Lemma e_net_closed cfg g d t : e_phase (g_st g) = PClosed ->
  snd (e_net cfg g d t) = [] /\ e_phase (g_st (fst (e_net cfg g d t))) = PClosed.
Proof.
  intros H. unfold e_net.
  rewrite (sk_Run_pump (engine_ok cfg) (g_st g) (g_acc g ++ d) (g_st g) (g_acc g ++ d) []).
  - cbn. auto.
  - apply RunNeed. apply estep_closed. exact H.
Qed.

Lemma nets_closed cfg : forall cs g, e_phase (g_st g) = PClosed -> snd (nets cfg g cs) = [].
Proof.
  induction cs as [|[d t] cs IH]; intros g Hc; [reflexivity|].
  cbn [nets]. destruct (e_net_closed cfg g d t Hc) as [Ho Hp].
  destruct (e_net cfg g d t) as [g1 o1]. cbn [fst snd] in *. subst o1.
  specialize (IH g1 Hp). destruct (nets cfg g1 cs). exact IH.
Qed.

Theorem engine_outputs_prefix_monotone cfg g d1 t1 d2 t2 :
  quiescent cfg g ->
  prefix (snd (e_net cfg g d1 t1)) (snd (e_net cfg g (d1 ++ d2) t2)).
Proof.
  intros Hq. unfold e_net. rewrite app_assoc.
  rewrite (sk_pump_app (engine_ok cfg) (g_st g) (g_acc g ++ d1) d2).
  destruct (pump (estep cfg) emu EMU_MAX (g_st g) (g_acc g ++ d1)) as [[s1 r1] o1].
  destruct (pump (estep cfg) emu EMU_MAX s1 (r1 ++ d2)) as [[s2 r2] o2].
  cbn [snd]. rewrite visible_app. apply prefix_app.
Qed.

Definition data_ok (cfg : ecfg) (f : frame) : Prop := f_cmd f = false /\ admitted (c_maxsz cfg) f.
Definition more_data (cfg : ecfg) (f : frame) : Prop := f_more f = true /\ data_ok cfg f.
Record wf_msg (cfg : ecfg) (m : list frame) : Prop := {
  wm_split : exists init l, m = init ++ [l] /\ Forall (fun f => f_more f = true) init /\ f_more l = false;
  wm_data : Forall (data_ok cfg) m;
  wm_len : (length m <= MAX_FRAMES)%nat
}.

Lemma data_frame_step cfg st f rest : e_phase st = PData -> data_ok cfg f ->
  estep cfg st (enc_codec f ++ rest) =
  if (MAX_FRAMES <=? length (e_partial st))%nat then Step (closed st) (length (enc_codec f)) [OActivity; OErr EProto]
  else if f_more f then Step (set_partial st (e_partial st ++ [f])) (length (enc_codec f)) [OActivity]
  else Step (set_partial st []) (length (enc_codec f)) [OActivity; ODeliver (e_partial st ++ [f])].
Proof. intros Hph [Hc Ha]. unfold estep. rewrite Hph, dec_buffer_enc, Hc by exact Ha. reflexivity. Qed.

Lemma set_partial_id st p : e_partial st = p -> set_partial st p = st.
Proof. intros <-. destruct st; reflexivity. Qed.

(* frames with MORE are collected in the partial batch, as long as it has room *)
Lemma run_frames_more cfg init : forall st rest s' r o,
  e_phase st = PData -> Forall (more_data cfg) init ->
  (length (e_partial st) + length init < MAX_FRAMES)%nat ->
  Run (estep cfg) (set_partial st (e_partial st ++ init)) rest s' r o ->
  Run (estep cfg) st (concat (map enc_codec init) ++ rest) s' r (concat (map (fun _ => [OActivity]) init) ++ o).
Proof.
  induction init as [|f init IH]; intros st rest s' r o Hph Hall Hlen HR.
  - rewrite app_nil_r, (set_partial_id st _ eq_refl) in HR. exact HR.
  - inversion Hall as [|? ? [Hm Hd] Hall']; subst. cbn [map concat length] in *. rewrite <- !app_assoc.
    eapply (RunStep_app [OActivity]).
    + rewrite data_frame_step, Hm by assumption.
      destruct (MAX_FRAMES <=? length (e_partial st))%nat eqn:E; [lia|]. reflexivity.
    + apply IH; cbn [set_partial e_phase e_partial]; auto.
      * rewrite app_length. cbn [length]. lia.
      * rewrite <- app_assoc. exact HR.
Qed.

Definition act_out (m : list frame) : list eout :=
  concat (map (fun _ => [OActivity]) (removelast m)) ++ [OActivity; ODeliver m].

Lemma run_message cfg st m rest s' r o :
  e_phase st = PData -> e_partial st = [] -> wf_msg cfg m ->
  Run (estep cfg) st rest s' r o ->
  Run (estep cfg) st (concat (map enc_codec m) ++ rest) s' r (act_out m ++ o).
Proof.
  intros Hph Hp [(init & l & -> & Hmore & Hl) Hdata Hlen] HR.
  apply Forall_app in Hdata as [Hdi Hdl]. apply Forall_inv in Hdl.
  rewrite app_length in Hlen. cbn [length] in Hlen.
  unfold act_out. rewrite removelast_last, map_app, concat_app. cbn [map concat]. rewrite app_nil_r, <- !app_assoc.
  apply run_frames_more; auto; rewrite ?Hp; cbn [app length].
  - rewrite Forall_forall in *. intros f Hf. split; auto.
  - lia.
  - eapply (RunStep_app [OActivity; ODeliver (init ++ [l])]).
    + rewrite data_frame_step, Hl by assumption. cbn [set_partial e_partial].
      destruct (MAX_FRAMES <=? length init)%nat eqn:E; [lia|]. reflexivity.
    + change (Run (estep cfg) (set_partial st []) rest s' r o). rewrite (set_partial_id st [] Hp). exact HR.
Qed.

Lemma run_messages cfg st ms : forall rest s' r o,
  e_phase st = PData -> e_partial st = [] -> Forall (wf_msg cfg) ms ->
  Run (estep cfg) st rest s' r o ->
  Run (estep cfg) st (concat (map enc_codec (concat ms)) ++ rest) s' r (concat (map act_out ms) ++ o).
Proof.
  induction ms as [|m ms IH]; intros rest s' r o Hph Hp Hall HR; [exact HR|].
  inversion Hall; subst. cbn [concat map]. rewrite map_app, concat_app, <- !app_assoc.
  apply run_message; auto.
Qed.

Lemma visible_acts_only (l : list frame) : visible (concat (map (fun _ : frame => [OActivity]) l)) = [].
Proof. induction l; cbn; auto. Qed.
Lemma visible_acts ms : visible (concat (map act_out ms)) = map ODeliver ms.
Proof.
  induction ms as [|m ms IH]; [reflexivity|]. cbn [map concat]. unfold act_out at 1.
  rewrite !visible_app, visible_acts_only, IH. reflexivity.
Qed.

Lemma nets_data_Run cfg g (cs : list (bytes * N)) st r o' : e_phase (g_st g) = PData -> g_acc g = [] ->
  Run (estep cfg) (g_st g) (concat (map fst cs)) st r o' ->
  let '(g', o) := nets cfg g cs in g_st g' = st /\ g_acc g' = r /\ o = visible o'.
Proof.
  intros Hph Hacc HR. apply nets_Run; [|rewrite Hacc; exact HR].
  unfold quiescent, estep. rewrite Hph, Hacc. reflexivity.
Qed.

(* in the Data phase, whole well-formed messages are delivered one batch each, in order,
   however the bytes are cut *)
Theorem data_phase_delivers cfg g ms cs :
  e_phase (g_st g) = PData -> e_partial (g_st g) = [] -> g_acc g = [] ->
  Forall (wf_msg cfg) ms ->
  concat (map fst cs) = concat (map enc_codec (concat ms)) ->
  let '(g', o) := nets cfg g cs in
  o = map ODeliver ms /\ g_st g' = g_st g /\ g_acc g' = [].
Proof.
  intros Hph Hp Hacc Hall Hc.
  assert (Run (estep cfg) (g_st g) (concat (map fst cs)) (g_st g) [] (concat (map act_out ms))) as HR.
  { rewrite Hc, <- (app_nil_r (concat (map enc_codec _))), <- (app_nil_r (concat (map act_out ms))).
    apply run_messages; auto. apply RunNeed. unfold estep. rewrite Hph. reflexivity. }
  apply (nets_data_Run cfg g cs _ _ _ Hph Hacc) in HR. destruct (nets cfg g cs) as [g' o].
  destruct HR as (-> & -> & ->). rewrite visible_acts. auto.
Qed.

Lemma data_phase_one_read cfg g ms :
  e_phase (g_st g) = PData -> e_partial (g_st g) = [] -> g_acc g = [] -> Forall (wf_msg cfg) ms ->
  snd (e_net cfg g (concat (map enc_codec (concat ms))) 0) = map ODeliver ms.
Proof.
  intros Hph Hpa Hacc Hwf.
  pose proof (data_phase_delivers cfg g ms [(concat (map enc_codec (concat ms)), 0)] Hph Hpa Hacc Hwf) as H.
  cbn [map fst concat nets] in H. rewrite app_nil_r in H. specialize (H eq_refl).
  destruct (e_net cfg g _ 0) as [g2 o2]. rewrite app_nil_r in H. apply H.
Qed.
