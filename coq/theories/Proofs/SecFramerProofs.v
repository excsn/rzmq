(* Proofs about the record layer of encrypted connections (Model/SecFramer.v). What holds for every
   [seal]/[open] comes first (framing, chunking, Section Framer: the sender, then the receiver); the rest
   is relative to an ideal (symbolic) AEAD, whose laws are the hypotheses of Section IdealAead and become
   explicit premises of every theorem there. *)
From RZ Require Import Base.Prelude Base.Stepper Model.Codec Model.Engine Model.SecFramer Proofs.CodecProofs
  Proofs.EngineProofs.
Local Open Scope N_scope.

Lemma be2_val x : x < U16 -> be_val (be_bytes 2 x) = x.
Proof.
  intros H. rewrite be_roundtrip. change (256 ^ N.of_nat 2) with U16. apply N.mod_small. exact H.
Qed.

Lemma be2_of_val a b : a < 256 -> b < 256 -> be_bytes 2 (be_val [a; b]) = [a; b].
Proof.
  intros Ha Hb. unfold be_val. cbn [fold_left be_bytes app].
  assert ((0 * 256 + a) * 256 + b = a * 256 + b) as -> by lia.
  f_equal; [|f_equal]; unfold U16 in *; lia.
Qed.

Lemma be_val2_lt a b : a < 256 -> b < 256 -> be_val [a; b] < U16.
Proof. intros. unfold be_val, U16. cbn [fold_left]. lia. Qed.

Lemma len_app (a b : bytes) : len (a ++ b) = len a + len b.
Proof. unfold len. rewrite app_length. lia. Qed.

Lemma fill_len n s : len (fill n s) = n.
Proof.
  unfold fill, len. rewrite <- (N2Nat.id n) at 2. f_equal. generalize 0.
  induction (N.to_nat n) as [|k IH]; intros i; cbn [fill_aux length]; [reflexivity|]. rewrite IH. reflexivity.
Qed.

Lemma enc_codec_len f : len (enc_codec f) = (if len (f_payload f) <=? 255 then 2 else 9) + len (f_payload f).
Proof.
  unfold enc_codec, enc_header_only, enc_header. rewrite len_app.
  destruct (len (f_payload f) <=? 255); unfold len at 1; cbn [length]; rewrite ?be_bytes_length; reflexivity.
Qed.

Lemma firstn_S_nth {A} (l : list A) : forall j x, nth_error l j = Some x -> firstn (S j) l = firstn j l ++ [x].
Proof.
  induction l as [|y l IH]; intros [|j] x H; cbn in H; try discriminate.
  - inversion H; subst. reflexivity.
  - change (firstn (S (S j)) (y :: l)) with (y :: firstn (S j) l). rewrite (IH _ _ H). reflexivity.
Qed.

Lemma map_some_inj {A} (a : list A) : forall b, map Some a = map Some b -> a = b.
Proof.
  induction a as [|x a IH]; intros [|y b] H; try discriminate; [reflexivity|].
  cbn in H. injection H as -> H. f_equal. auto.
Qed.

Lemma prefix_app_cases {A} (a fs b : list A) : prefix fs (a ++ b) ->
  (exists t, a = fs ++ t /\ t <> []) \/ exists fs', fs = a ++ fs' /\ prefix fs' b.
Proof.
  intros [d H]. apply app_eq_app in H as [t [[-> ->] | [-> ->]]]; [destruct t as [|x t]|].
  - right. exists []. rewrite !app_nil_r. split; [reflexivity | exists b; reflexivity].
  - left. exists (x :: t). split; [reflexivity | discriminate].
  - right. exists t. split; [reflexivity | exists d; reflexivity].
Qed.

(* the records the length-prefix framing cuts out of a byte stream (independent of any key) *)
Inductive framed : bytes -> bytes -> Prop :=
| framed_here s : 2 <= len s -> 2 + be_val (firstn 2 s) <= len s ->
    framed s (firstn (N.to_nat (be_val (firstn 2 s))) (skipn 2 s))
| framed_next s c : 2 <= len s -> 2 + be_val (firstn 2 s) <= len s ->
    framed (skipn (2 + N.to_nat (be_val (firstn 2 s))) s) c -> framed s c.

(* the stream starts with a whole record *)
Definition complete (s : bytes) : bool := (2 <=? len s) && (2 + be_val (firstn 2 s) <=? len s).

(* that record: its announced length, its body, what follows it *)
Definition hd_len (s : bytes) : N := be_val (firstn 2 s).
Definition hd_rec (s : bytes) : bytes := firstn (N.to_nat (hd_len s)) (skipn 2 s).
Definition tl_rec (s : bytes) : bytes := skipn (2 + N.to_nat (hd_len s)) s.

Lemma complete_spec s : complete s = true <-> 2 + hd_len s <= len s.
Proof. unfold complete, hd_len. lia. Qed.

Lemma framed_hd s : complete s = true -> framed s (hd_rec s).
Proof. intros H. apply complete_spec in H. unfold hd_len in H. apply framed_here; lia. Qed.
Lemma framed_tl s c : complete s = true -> framed (tl_rec s) c -> framed s c.
Proof. intros H Hf. apply complete_spec in H. unfold hd_len in H. apply framed_next; [lia | lia | exact Hf]. Qed.

Lemma framed_inv s c : framed s c -> complete s = true /\ (c = hd_rec s \/ framed (tl_rec s) c).
Proof. intros [s' H1 H2 | s' c' H1 H2 H3]; (split; [apply complete_spec; unfold hd_len; lia | auto]). Qed.

Lemma complete_app b d : complete b = true ->
  complete (b ++ d) = true /\ hd_len (b ++ d) = hd_len b /\ hd_rec (b ++ d) = hd_rec b.
Proof.
  intros H. apply complete_spec in H.
  assert (hd_len (b ++ d) = hd_len b) as Hl.
  { unfold hd_len. rewrite firstn_app_le by (unfold len in H; lia). reflexivity. }
  repeat split; [| exact Hl |].
  - apply complete_spec. rewrite Hl, len_app. lia.
  - unfold hd_rec. rewrite Hl, skipn_app_le, firstn_app_le; [reflexivity | rewrite skipn_length |]; unfold len in H; lia.
Qed.

Lemma record_hd ct rest : len ct < U16 ->
  complete (record_of ct ++ rest) = true /\ hd_len (record_of ct ++ rest) = len ct /\
  hd_rec (record_of ct ++ rest) = ct /\ tl_rec (record_of ct ++ rest) = rest.
Proof.
  intros Hs. unfold record_of. rewrite N.mod_small, <- app_assoc by exact Hs.
  destruct (firstn_skipn_app 2 (be_bytes 2 (len ct)) (ct ++ rest) (be_bytes_length _ _)) as [Hf Hk].
  destruct (firstn_skipn_app (length ct) ct rest eq_refl) as [Hf' Hk'].
  assert (hd_len (be_bytes 2 (len ct) ++ ct ++ rest) = len ct) as Hl.
  { unfold hd_len. rewrite Hf. apply be2_val. exact Hs. }
  repeat split; [| exact Hl | |].
  - apply complete_spec. rewrite Hl. unfold len. rewrite !app_length, be_bytes_length. lia.
  - unfold hd_rec. rewrite Hl, Hk. unfold len. rewrite Nat2N.id. exact Hf'.
  - unfold tl_rec. rewrite Hl, <- skipn_skipn, Hk. unfold len. rewrite Nat2N.id. exact Hk'.
Qed.

Lemma complete_prefix s : complete s = true -> wf_bytes (firstn 2 s) = true -> s = record_of (hd_rec s) ++ tl_rec s.
Proof.
  intros H Hwf. apply complete_spec in H.
  destruct s as [|a [|b t]]; try (unfold len in H; cbn [length] in H; lia).
  unfold hd_rec, tl_rec, hd_len in *. cbn [firstn skipn Nat.add] in *. cbn [wf_bytes forallb] in Hwf.
  set (l := be_val [a; b]) in *.
  assert (a < 256 /\ b < 256) as [Ha Hb] by lia.
  assert (l < U16) as Hl by (apply be_val2_lt; assumption).
  assert (len (firstn (N.to_nat l) t) = l) as Hr.
  { unfold len. rewrite firstn_length_le; [lia|]. unfold len in H. cbn [length] in H. lia. }
  unfold record_of. rewrite Hr, N.mod_small by exact Hl. unfold l at 1. rewrite be2_of_val by assumption.
  cbn [app]. rewrite firstn_skipn. reflexivity.
Qed.

Lemma complete_short a b t : len t < a * 256 + b -> complete (a :: b :: t) = false.
Proof.
  intros H. destruct (complete _) eqn:E; [|reflexivity]. apply complete_spec in E.
  unfold hd_len, be_val, len in *. cbn [firstn fold_left length] in E. lia.
Qed.

(* frames of a list of batches; each batch is a list of messages, each message a list of frames *)
Definition flat (bs : list (list (list frame))) : list frame := concat (map (@concat frame) bs).

Lemma flat_cons b bs : flat (b :: bs) = concat b ++ flat bs.
Proof. reflexivity. Qed.
Lemma flat_app a b : flat (a ++ b) = flat a ++ flat b.
Proof. unfold flat. rewrite map_app, concat_app. reflexivity. Qed.

(* a plaintext chunk that one record can carry; plaintext.chunks(65519) yields only such *)
Definition okc (ch : bytes) : Prop := len ch <= NOISE_MAX_PT.

Lemma chunk_fuel_spec : forall f p, (length p <= f)%nat ->
  concat (chunk_fuel f p) = p /\ Forall okc (chunk_fuel f p) /\
  N.of_nat (length (chunk_fuel f p)) = (len p + 65518) / 65519.
Proof.
  induction f as [|f IH]; intros p Hl.
  - destruct p; [split; [|split]; [reflexivity | constructor | reflexivity] | cbn in Hl; lia].
  - destruct p as [|x t]; [split; [|split]; [reflexivity | constructor | reflexivity]|].
    cbn [chunk_fuel]. assert (0 < CHUNK)%nat as Hc by (unfold CHUNK, NOISE_MAX_PT; lia).
    destruct (IH (skipn CHUNK (x :: t))) as (H1 & H2 & H3).
    { rewrite skipn_length. lia. }
    split; [|split].
    + cbn [concat]. rewrite H1. apply firstn_skipn.
    + constructor; [|exact H2]. clear H3. (* lia would chew on its division *)
      unfold okc, len. rewrite firstn_length. unfold CHUNK. lia.
    + cbn [length]. rewrite Nat2N.inj_succ, H3. unfold len. rewrite skipn_length, Nat2N.inj_sub.
      unfold CHUNK. rewrite N2Nat.id. unfold NOISE_MAX_PT.
      cbn [length]. rewrite Nat2N.inj_succ. generalize (N.of_nat (length t)). clear. intros L. lia.
Qed.
Lemma chunks_concat p : concat (chunks p) = p.
Proof. apply chunk_fuel_spec. unfold chunks. lia. Qed.
Lemma chunks_okc p : Forall okc (chunks p).
Proof. apply chunk_fuel_spec. unfold chunks. lia. Qed.
Lemma chunks_count p : N.of_nat (length (chunks p)) = (len p + 65518) / 65519.
Proof. apply chunk_fuel_spec. unfold chunks. lia. Qed.
Lemma chunks_nonempty p : p <> [] -> exists ch r, chunks p = ch :: r.
Proof. destruct p as [|x t]; [congruence|]. intros _. unfold chunks. cbn [length chunk_fuel]. eauto. Qed.

Lemma all_chunks_okc bs : Forall okc (all_chunks bs).
Proof.
  unfold all_chunks. induction bs as [|b bs IH]; [constructor|]. cbn [map concat].
  apply Forall_app. split; [apply chunks_okc | exact IH].
Qed.
Lemma all_chunks_concat bs : concat (all_chunks bs) = concat (map enc_codec (flat bs)).
Proof.
  unfold all_chunks. induction bs as [|b bs IH]; [reflexivity|].
  cbn [map concat]. rewrite concat_app, chunks_concat, IH, flat_cons, map_app, concat_app. reflexivity.
Qed.
Lemma sealed_in chs : forall n0 n p, In (n, p) (sealed n0 chs) ->
  exists j, nth_error chs j = Some p /\ n = n0 + N.of_nat j.
Proof.
  induction chs as [|ch chs IH]; intros n0 n p H; [destruct H|].
  cbn [sealed] in H. destruct H as [H|H].
  - inversion H; subst. exists 0%nat. split; [reflexivity | lia].
  - destruct (IH _ _ _ H) as (j & Hn & ->). exists (S j). split; [exact Hn | lia].
Qed.

Lemma chunk_wires_app key seal (k : key) : forall a n b,
  chunk_wires key seal k n (a ++ b) =
  chunk_wires key seal k n a ++ chunk_wires key seal k (n + N.of_nat (length a)) b.
Proof.
  induction a as [|x a IH]; intros n b.
  - cbn. replace (n + N.of_nat 0) with n by lia. reflexivity.
  - cbn [app chunk_wires length]. rewrite IH. f_equal. f_equal. f_equal. lia.
Qed.

(* counters stay below 2^64 for the whole sequence *)
Definition ctr_room (n : N) (k : nat) : Prop := n + N.of_nat k + 1 < U64.

(* the plaintext parser (Codec.buffer_step) over the growing decrypted buffer.
   PR m x d fs: decoding the plaintext x yields exactly the frames fs, no error, leftover d *)
Definition PR (m : Z) (x d : bytes) (fs : list frame) : Prop :=
  Run (buffer_step m) false x false d (map Some fs).

Lemma pump_failed m b : pump (buffer_step m) buffer_mu 1 true b = (true, b, []).
Proof. apply (sk_Run_pump (buffer_ok m)). apply RunNeed. reflexivity. Qed.

Lemma PR_pump m x d fs : PR m x d fs -> pump (buffer_step m) buffer_mu 1 false x = (false, d, map Some fs).
Proof. apply (sk_Run_pump (buffer_ok m)). Qed.

Lemma PR_app_inv m b y r fs : PR m (b ++ y) r fs ->
  exists r1 f1 f2, PR m b r1 f1 /\ PR m (r1 ++ y) r f2 /\ fs = f1 ++ f2.
Proof.
  intros H. apply PR_pump in H. rewrite (sk_pump_app (buffer_ok m)) in H.
  pose proof (sk_pump_Run (buffer_ok m) false b) as H1.
  destruct (pump (buffer_step m) buffer_mu 1 false b) as [[[|] r1] o1].
  - rewrite pump_failed in H. discriminate.
  - pose proof (sk_pump_Run (buffer_ok m) false (r1 ++ y)) as H2.
    destruct (pump (buffer_step m) buffer_mu 1 false (r1 ++ y)) as [[s2 r2] o2].
    injection H as -> -> H. symmetry in H. apply map_eq_app in H as (f1 & f2 & -> & <- & <-).
    exists r1, f1, f2. auto.
Qed.

Lemma PR_det m x d1 f1 d2 f2 : PR m x d1 f1 -> PR m x d2 f2 -> d1 = d2 /\ f1 = f2.
Proof.
  intros A B. apply PR_pump in A. apply PR_pump in B. rewrite A in B. injection B as -> B.
  split; [reflexivity | apply map_some_inj; exact B].
Qed.

Lemma PR_full m F : Forall (admitted m) F -> PR m (concat (map enc_codec F)) [] F.
Proof.
  intros Ha. unfold PR. rewrite <- (app_nil_r (concat _)), <- (app_nil_r (map Some F)).
  apply run_buffer_frames; [exact Ha|]. apply RunNeed. reflexivity.
Qed.
Lemma honest_PR m bs : Forall (admitted m) (flat bs) -> PR m (concat (all_chunks bs)) [] (flat bs).
Proof. intros Ha. rewrite all_chunks_concat. apply PR_full. exact Ha. Qed.

Lemma PR_firstn m chs dE FE j : PR m (concat chs) dE FE ->
  exists d fs, PR m (concat (firstn j chs)) d fs /\ prefix fs FE.
Proof.
  intros H. rewrite <- (firstn_skipn j chs), concat_app in H.
  destruct (PR_app_inv _ _ _ _ _ H) as (d & fs & g & HA & _ & ->). exists d, fs. split; [exact HA | apply prefix_app].
Qed.
Lemma PR_next m chs dE FE j d fsj ch :
  PR m (concat chs) dE FE -> nth_error chs j = Some ch -> PR m (concat (firstn j chs)) d fsj ->
  exists d1 g, PR m (d ++ ch) d1 g /\ PR m (concat (firstn (S j) chs)) d1 (fsj ++ g).
Proof.
  intros Hg Hn HP. destruct (PR_firstn m chs dE FE (S j) Hg) as (d1 & fs1 & H1 & _).
  pose proof H1 as H1'. rewrite (firstn_S_nth _ _ _ Hn), concat_app in H1'. cbn [concat] in H1'. rewrite app_nil_r in H1'.
  destruct (PR_app_inv _ _ _ _ _ H1') as (r0 & f0 & g & HA & HB & ->).
  destruct (PR_det _ _ _ _ _ _ HP HA) as [<- <-]. eauto.
Qed.

(* a message as the engine's Data phase hands it to the application: frames with MORE, a last one without,
   no command frame, at most MAX_FRAMES *)
Record wf_msg (msg : list frame) : Prop := {
  wm_split : exists init l, msg = init ++ [l] /\ Forall (fun f => f_more f = true /\ f_cmd f = false) init /\
                            f_more l = false /\ f_cmd l = false;
  wm_len : (length msg <= MAX_FRAMES)%nat
}.

Lemma data_fold_app st a : forall b,
  data_fold st (a ++ b) =
  let '(s1, e1) := data_fold st a in let '(s2, e2) := data_fold s1 b in (s2, e1 ++ e2).
Proof.
  revert st. induction a as [|x a IH]; intros st b.
  - cbn. destruct (data_fold st b). reflexivity.
  - cbn [app data_fold]. destruct (data_on st x) as [st1 e1]. rewrite IH.
    destruct (data_fold st1 a) as [s1 e1']. destruct (data_fold s1 b) as [s2 e2].
    rewrite app_assoc. reflexivity.
Qed.

Lemma data_fold_more init : forall p,
  Forall (fun f => f_more f = true /\ f_cmd f = false) init -> (length p + length init < MAX_FRAMES)%nat ->
  data_fold {| d_partial := p; d_closed := false |} (map RFrame init) =
  ({| d_partial := p ++ init; d_closed := false |}, []).
Proof.
  induction init as [|f init IH]; intros p Hall Hlen.
  - cbn. rewrite app_nil_r. reflexivity.
  - inversion Hall as [|? ? [Hm Hc] Hall']; subst. cbn [map data_fold].
    unfold data_on at 1. cbn [d_closed d_partial]. rewrite Hc, Hm.
    cbn [length] in Hlen.
    destruct (MAX_FRAMES <=? length p)%nat eqn:E; [apply Nat.leb_le in E; lia|].
    rewrite IH; auto.
    + rewrite <- app_assoc. reflexivity.
    + rewrite app_length. cbn [length]. lia.
Qed.

Lemma data_fold_msg msg : wf_msg msg ->
  data_fold d_init (map RFrame msg) = (d_init, [ODeliver msg]).
Proof.
  intros [(init & l & -> & Hi & Hm & Hc) Hlen]. rewrite app_length in Hlen. cbn [length] in Hlen.
  rewrite map_app, data_fold_app. unfold d_init at 1.
  rewrite data_fold_more by (auto; cbn [length]; lia). cbn [app map data_fold].
  unfold data_on. cbn [d_closed d_partial]. rewrite Hc, Hm.
  destruct (MAX_FRAMES <=? length init)%nat eqn:E; [apply Nat.leb_le in E; lia|]. reflexivity.
Qed.

Lemma data_fold_msgs msgs : Forall wf_msg msgs ->
  data_fold d_init (map RFrame (concat msgs)) = (d_init, map ODeliver msgs).
Proof.
  induction 1 as [|msg msgs Hm Hms IH]; [reflexivity|].
  cbn [concat]. rewrite map_app, data_fold_app, data_fold_msg by exact Hm. rewrite IH. reflexivity.
Qed.

Definition all_msgs (bs : list (list (list frame))) : list (list frame) := concat bs.
Lemma flat_concat bs : flat bs = concat (all_msgs bs).
Proof.
  unfold flat, all_msgs. induction bs as [|b bs IH]; [reflexivity|].
  cbn [map concat]. rewrite concat_app, IH. reflexivity.
Qed.

(* frames forming a prefix of a sequence of well-formed messages: the engine delivers whole messages only *)
Lemma data_fold_prefix msgs : Forall wf_msg msgs -> forall fs, prefix fs (concat msgs) ->
  exists kk st, (kk <= length msgs)%nat /\ d_closed st = false /\
    data_fold d_init (map RFrame fs) = (st, map ODeliver (firstn kk msgs)).
Proof.
  induction 1 as [|msg msgs Hm Hms IH]; intros fs Hp.
  - destruct Hp as [d Hd]. cbn in Hd. symmetry in Hd. apply app_eq_nil in Hd as [-> _].
    exists 0%nat, d_init. auto.
  - cbn [concat] in Hp. destruct (prefix_app_cases _ _ _ Hp) as [(t & Hmsg & Ht) | (fs' & -> & Hp')].
    + destruct Hm as [(init & l & -> & Hi & _ & _) Hlen].
      destruct (exists_last Ht) as (t' & z & ->). rewrite app_assoc in Hmsg. apply app_inj_tail in Hmsg as [-> _].
      apply Forall_app in Hi as [Hfs _]. rewrite !app_length in Hlen. cbn [length] in Hlen.
      exists 0%nat, {| d_partial := fs; d_closed := false |}. split; [lia|]. split; [reflexivity|].
      unfold d_init. apply data_fold_more; [exact Hfs | cbn [length]; lia].
    + destruct (IH _ Hp') as (kk & st & Hk & Hc & Ho).
      exists (S kk), st. split; [cbn [length]; lia|]. split; [exact Hc|].
      rewrite map_app, data_fold_app, data_fold_msg by exact Hm. rewrite Ho. reflexivity.
Qed.
(* ... and an error of the record layer after them is reported once *)
Lemma data_fold_snoc_err st os st' e : data_fold st os = (st', e) -> d_closed st' = false ->
  snd (data_fold st (os ++ [RErr])) = e ++ [OErr ESecurity].
Proof. intros H Hc. rewrite data_fold_app, H. cbn [data_fold]. unfold data_on. rewrite Hc. reflexivity. Qed.

(* heartbeats: PING / PONG are written outside the record layer, as plain codec frames: flags 0x04, a
   one-byte size, the body *)
Lemma enc_cmd_short body : len body <= 255 -> enc_codec (cmd_frame body) = 4 :: len body :: body.
Proof.
  intros H. unfold enc_codec, enc_header_only, enc_header, cmd_frame. cbn [f_payload f_more f_cmd].
  assert (len body <=? 255 = true) as -> by lia. reflexivity.
Qed.

(* the peer's framer reads the first two bytes of such a frame as a record length of at least 0x0400
   (0x0407 = 1031 for a PING) and waits: the command is not decoded, a PING gets no PONG, and up to 1023
   bytes that follow (honest records included) are not looked at *)
Lemma cmd_incomplete body rest : len body <= 255 -> len rest < 1024 ->
  complete (enc_codec (cmd_frame body) ++ rest) = false.
Proof. intros Hb H. rewrite enc_cmd_short by exact Hb. apply complete_short. rewrite len_app. lia. Qed.

Lemma ping_incomplete ttl rest : len rest < 1024 -> complete (hb_ping ttl ++ rest) = false.
Proof. apply cmd_incomplete. unfold ping_body, len. rewrite !app_length, be_bytes_length. cbn [length s_PING]. lia. Qed.
Lemma pong_incomplete ctx rest : len ctx <= 250 -> len rest < 1024 -> complete (hb_pong ctx ++ rest) = false.
Proof. intros Hc. apply cmd_incomplete. unfold pong_body, len in *. rewrite app_length. cbn [length s_PONG]. lia. Qed.

Section Framer.
Variable key : Type.
Variable seal : key -> N -> bytes -> bytes.

Notation encrypt := (encrypt key seal).
Notation write_msg_batch := (write_msg_batch key seal).
Notation send_all := (send_all key seal).
Notation chunk_wires := (chunk_wires key seal).
Notation seal_chunks := (seal_chunks key seal).
(* a lemma takes what its statement mentions *)
Set Default Proof Using "Type".

Lemma encrypt_ok c ch ct c1 : encrypt c ch = EOk ct c1 ->
  ct = seal (c_ek c) (c_sn c) ch /\ c1 = set_sn c (c_sn c + 1).
Proof.
  unfold SecFramer.encrypt.
  destruct (c_kind c), (NOISE_MAX_PT <? len ch), (ctr_ok (c_sn c)); intros H; inversion H; auto.
Qed.
Lemma encrypt_honest c ch : okc ch -> ctr_ok (c_sn c) = true ->
  encrypt c ch = EOk (seal (c_ek c) (c_sn c) ch) (set_sn c (c_sn c + 1)).
Proof.
  unfold okc, SecFramer.encrypt. intros Hs ->. assert (NOISE_MAX_PT <? len ch = false) as -> by lia.
  destruct (c_kind c); reflexivity.
Qed.

(* what the sender really emits: every call succeeds for every size, one record per chunk *)
Lemma seal_chunks_ok : forall chs c out, Forall okc chs -> ctr_room (c_sn c) (length chs) ->
  seal_chunks c chs out =
  (SOk (out ++ concat (chunk_wires (c_ek c) (c_sn c) chs)), set_sn c (c_sn c + N.of_nat (length chs))).
Proof.
  induction chs as [|ch chs IH]; intros c out Hs Hr.
  - destruct c. unfold set_sn. cbn. rewrite app_nil_r. f_equal. f_equal. lia.
  - inversion Hs; subst. unfold ctr_room in Hr. cbn [length] in Hr. cbn [SecFramer.seal_chunks].
    rewrite encrypt_honest, IH by (auto; unfold ctr_room, ctr_ok; cbn [set_sn c_sn]; lia).
    unfold set_sn. cbn [SecFramer.chunk_wires concat length c_kind c_ek c_dk c_sn c_rn].
    rewrite <- app_assoc. f_equal. f_equal. lia.
Qed.

Theorem write_ok c b : ctr_room (c_sn c) (length (chunks (enc_contiguous b))) ->
  write_msg_batch c b =
  (SOk (concat (chunk_wires (c_ek c) (c_sn c) (chunks (enc_contiguous b)))),
   set_sn c (c_sn c + N.of_nat (length (chunks (enc_contiguous b))))).
Proof. apply (seal_chunks_ok _ c []), chunks_okc. Qed.

Theorem send_all_ok : forall bs c, ctr_room (c_sn c) (length (all_chunks bs)) ->
  exists ws,
  send_all c bs = (map SOk ws, set_sn c (c_sn c + N.of_nat (length (all_chunks bs)))) /\
  concat ws = concat (chunk_wires (c_ek c) (c_sn c) (all_chunks bs)).
Proof.
  induction bs as [|b bs IH]; intros c Hr.
  - exists []. destruct c. unfold set_sn. cbn. split; [|reflexivity]. f_equal. f_equal. lia.
  - unfold all_chunks, ctr_room in *. cbn [map concat] in *. rewrite app_length in *.
    cbn [SecFramer.send_all]. rewrite write_ok by (unfold ctr_room; lia).
    destruct (IH (set_sn c (c_sn c + N.of_nat (length (chunks (enc_contiguous b)))))) as (ws & Hw & Hc).
    { cbn [set_sn c_sn]. lia. }
    rewrite Hw. eexists (_ :: ws). unfold set_sn in *. cbn [c_kind c_ek c_dk c_sn c_rn] in *. split.
    + cbn [map]. f_equal. f_equal. lia.
    + cbn [concat]. rewrite Hc, chunk_wires_app, concat_app. reflexivity.
Qed.

Lemma seal_chunks_shape chs : forall c out w c', seal_chunks c chs out = (SOk w, c') ->
  w = out ++ concat (chunk_wires (c_ek c) (c_sn c) chs).
Proof.
  induction chs as [|ch chs IH]; intros c out w c' H.
  - cbn in H. inversion H. rewrite app_nil_r. reflexivity.
  - cbn [SecFramer.seal_chunks] in H. destruct (encrypt c ch) as [ct c1| |] eqn:E; try discriminate.
    apply encrypt_ok in E as [-> ->]. rewrite (IH _ _ _ _ H).
    cbn [SecFramer.chunk_wires concat set_sn c_ek c_sn]. rewrite <- app_assoc. reflexivity.
Qed.

(* The attacker model. The stream [s] handed to the receiver is ARBITRARY (flips, drops, duplicates,
   swaps, cuts, injections of sent records and of any other bytes) except that the attacker cannot
   make new ciphertexts under the session key: every record the length-prefix framing cuts out of
   [s] that IS a seal term under [k] (with a 64-bit nonce) was sealed by the sender. *)
Definition unforged (k : key) (sent : list (N * bytes)) (s : bytes) : Prop :=
  forall c, framed s c -> forall n p, n < U64 -> c = seal k n p -> In (n, p) sent.

Section Sessions.
Variables statics eph : Type.
Variable curve_kx : bool -> statics -> key * key.
Notation curve_data_cipher := (curve_data_cipher key statics eph curve_kx).

(* CURVE: the data cipher does not depend on the ephemeral keys at all, and the counters restart
   at 1: EVERY session between the same static keys seals the same plaintext to the same bytes *)
Theorem sessions_differ_refuted server sk (e1 e2 e1' e2' : eph) b :
  write_msg_batch (curve_data_cipher server sk e1 e2) b = write_msg_batch (curve_data_cipher server sk e1' e2') b.
Proof. reflexivity. Qed.
End Sessions.

Variable open : key -> N -> bytes -> option bytes.

Notation rstate := (rstate key).
Notation sstep := (sstep key open).
Notation on_record := (on_record key open).
Notation decrypt := (decrypt key open).
Notation recv_run := (recv_run key open).

(* receiver state: cipher fields, decrypted_buffer = d, not closed *)
Definition rcvd (kd : ckind) (ek k : key) (sn n : N) (d : bytes) : rstate :=
  {| r_c := {| c_kind := kd; c_ek := ek; c_dk := k; c_sn := sn; c_rn := n |}; r_dbuf := d; r_closed := false |}.
Definition rcv (kd : ckind) (ek k : key) (sn n : N) : rstate := rcvd kd ek k sn n [].
Definition closed_st (st : rstate) : rstate := {| r_c := r_c st; r_dbuf := r_dbuf st; r_closed := true |}.

(* one step of try_read_msg, in terms of the first record of the buffer *)
Lemma sstep_eq m st s : sstep m st s =
  if negb (r_closed st) && complete s
  then let '(st', o) := on_record m st (hd_rec s) in Step st' (2 + N.to_nat (hd_len s)) o
  else Need.
Proof.
  unfold SecFramer.sstep, complete, hd_rec, hd_len. cbv zeta. rewrite !N.ltb_antisym.
  destruct (r_closed st), (2 <=? len s), (2 + be_val (firstn 2 s) <=? len s); reflexivity.
Qed.
Lemma sstep_Step m st s st' n o : sstep m st s = Step st' n o ->
  r_closed st = false /\ complete s = true /\ n = (2 + N.to_nat (hd_len s))%nat /\
  on_record m st (hd_rec s) = (st', o).
Proof.
  rewrite sstep_eq. destruct (r_closed st), (complete s); cbn [negb andb]; try discriminate.
  destruct (on_record m st (hd_rec s)) as [st1 o1]. intros H. injection H as <- <- <-. repeat split.
Qed.

Lemma sec_ok m : stepper_ok (sstep m) (smu key) 0.
Proof.
  constructor.
  - intros st b d st' n o H. apply sstep_Step in H as (Hc & E & -> & Ho).
    destruct (complete_app b d E) as (E' & Hl & Hr).
    rewrite sstep_eq, Hc, E', Hl, Hr, Ho. reflexivity.
  - intros st b st' n o H. apply sstep_Step in H as (_ & E & -> & _).
    apply complete_spec in E. unfold len in E. lia.
  - intros st b st' n o H. apply sstep_Step in H as (_ & _ & -> & _). left. unfold smu. lia.
Qed.

Lemma closed_need m st b : r_closed st = true -> sstep m st b = Need.
Proof. intros H. rewrite sstep_eq, H. reflexivity. Qed.
Lemma run_closed m st b s' r o : r_closed st = true -> Run (sstep m) st b s' r o -> s' = st /\ r = b /\ o = [].
Proof.
  intros Hc HR. destruct HR as [st b Hn | st b st1 n o1 s' r o Hs HR]; [auto|].
  rewrite closed_need in Hs by exact Hc. discriminate.
Qed.

Lemma feed_pump m st cs : feed (sstep m) (smu key) 0 st [] cs = pump (sstep m) (smu key) 0 st (concat cs).
Proof.
  apply (sk_feed_quiescent_start (sec_ok m)). unfold SecFramer.sstep. destruct (r_closed st); reflexivity.
Qed.

Lemma incomplete_need m st s : complete s = false -> sstep m st s = Need.
Proof. intros H. rewrite sstep_eq, H, andb_false_r. reflexivity. Qed.

(* the two ciphers decrypt alike while the counter has room *)
Lemma decrypt_eq c ct : ctr_ok (c_rn c) = true ->
  decrypt c ct = if len ct <? TAG then DcErr else
                 match open (c_dk c) (c_rn c) ct with
                 | Some pt => DcOk pt (set_rn c (c_rn c + 1))
                 | None => DcErr
                 end.
Proof. intros H. unfold SecFramer.decrypt. rewrite H. destruct (c_kind c); reflexivity. Qed.
Lemma decrypt_ok_open c ct p c' : decrypt c ct = DcOk p c' -> open (c_dk c) (c_rn c) ct = Some p.
Proof.
  unfold SecFramer.decrypt.
  destruct (len ct <? TAG), (c_kind c), (ctr_ok (c_rn c)), (open (c_dk c) (c_rn c) ct); congruence.
Qed.

Lemma on_record_eq m kd ek k sn n d rec : ctr_ok n = true ->
  on_record m (rcvd kd ek k sn n d) rec =
  match (if len rec <? TAG then None else open k n rec) with
  | Some pt => let '(f, d', o) := pump (buffer_step m) buffer_mu 1 false (d ++ pt) in
               ({| r_c := {| c_kind := kd; c_ek := ek; c_dk := k; c_sn := sn; c_rn := n + 1 |};
                   r_dbuf := d'; r_closed := f |}, map conv o)
  | None => (closed_st (rcvd kd ek k sn n d), [RErr])
  end.
Proof.
  intros H. unfold SecFramer.on_record, rcvd. cbn [r_c r_dbuf]. rewrite decrypt_eq by exact H.
  cbn [c_dk c_rn]. destruct (len rec <? TAG); [reflexivity|]. destruct (open k n rec); reflexivity.
Qed.

Section IdealAead.
(* the ideal AEAD *)
Hypothesis open_seal : forall k n p, open k n (seal k n p) = Some p.
Hypothesis open_auth : forall k n c p, open k n c = Some p -> c = seal k n p.
Hypothesis seal_len : forall k n p, len (seal k n p) = len p + TAG.
(* Section Bundled below and Props/C18.v apply the theorems of this section to the same three premises, so every
   lemma takes all three, whether its proof needs them or not *)
Set Default Proof Using "All".

Lemma recv_run_pump m c cs : recv_run m c cs = pump (sstep m) (smu key) 0 (r_init c) (concat cs).
Proof. apply feed_pump. Qed.

Theorem heartbeat_swallowed m kd ek k sn n d ttl rest : len rest < 1024 ->
  pump (sstep m) (smu key) 0 (rcvd kd ek k sn n d) (hb_ping ttl ++ rest) =
  (rcvd kd ek k sn n d, hb_ping ttl ++ rest, []).
Proof. intros Hl. apply (sk_Run_pump (sec_ok m)), RunNeed, incomplete_need, ping_incomplete. exact Hl. Qed.

Lemma okc_ct k n ch : okc ch -> len (seal k n ch) < U16.
Proof. unfold okc. intros H. rewrite seal_len. unfold NOISE_MAX_PT, TAG, U16 in *. lia. Qed.

Lemma step_chunk m kd ek k sn n d ch rest d' fs' :
  okc ch -> ctr_ok n = true -> PR m (d ++ ch) d' fs' ->
  sstep m (rcvd kd ek k sn n d) (record_of (seal k n ch) ++ rest) =
  Step (rcvd kd ek k sn (n + 1) d') (length (record_of (seal k n ch))) (map RFrame fs').
Proof.
  intros Hs Hc Hp.
  destruct (record_hd (seal k n ch) rest (okc_ct k n ch Hs)) as (E & Hl & Hr & _).
  rewrite sstep_eq, E, Hl, Hr, on_record_eq by exact Hc.
  assert (len (seal k n ch) <? TAG = false) as -> by (rewrite seal_len; lia).
  rewrite open_seal, (PR_pump _ _ _ _ Hp), map_map.
  unfold record_of, len. rewrite app_length, be_bytes_length, Nat2N.id. reflexivity.
Qed.

(* the records of the chunks [chs] are taken one per step; the frames come out as the plaintext parser
   completes them (a frame may span records), whatever the cut of the plaintext into chunks *)
Lemma run_chunks m kd ek k sn : forall chs n d d' fs' rest s' r o,
  Forall okc chs -> ctr_room n (length chs) -> buffer_step m false d = Need ->
  PR m (d ++ concat chs) d' fs' ->
  Run (sstep m) (rcvd kd ek k sn (n + N.of_nat (length chs)) d') rest s' r o ->
  Run (sstep m) (rcvd kd ek k sn n d) (concat (chunk_wires k n chs) ++ rest) s' r (map RFrame fs' ++ o).
Proof.
  induction chs as [|ch chs IH]; intros n d d' fs' rest s' r o Hs Hr Hq HP HR.
  - cbn [concat] in HP. rewrite app_nil_r in HP.
    destruct (Run_det _ _ _ _ _ _ _ _ _ _ _ HP (RunNeed _ _ _ _ _ Hq)) as (_ & -> & Hm).
    destruct fs'; [|discriminate]. cbn [length] in HR. replace (n + N.of_nat 0) with n in HR by lia. exact HR.
  - inversion Hs; subst. cbn [concat] in HP. rewrite app_assoc in HP.
    destruct (PR_app_inv _ _ _ _ _ HP) as (r1 & f1 & f2 & HA & HB & ->).
    cbn [SecFramer.chunk_wires concat]. rewrite map_app, <- !app_assoc.
    eapply RunStep_app.
    + apply (step_chunk m kd ek k sn n d ch _ r1 f1); auto. unfold ctr_room in Hr. unfold ctr_ok. lia.
    + apply (IH (n + 1) r1 d' f2); auto.
      * unfold ctr_room in *. cbn [length] in Hr. lia.
      * exact (Run_quiescent _ _ _ _ _ _ _ _ HA).
      * replace (n + 1 + N.of_nat (length chs)) with (n + N.of_nat (length (ch :: chs))) by (cbn [length]; lia).
        exact HR.
Qed.

Lemma run_honest m kd ek k sn n bs rest s' r o :
  Forall (admitted m) (flat bs) -> ctr_room n (length (all_chunks bs)) ->
  Run (sstep m) (rcv kd ek k sn (n + N.of_nat (length (all_chunks bs)))) rest s' r o ->
  Run (sstep m) (rcv kd ek k sn n) (concat (chunk_wires k n (all_chunks bs)) ++ rest) s' r (map RFrame (flat bs) ++ o).
Proof.
  intros Ha Hr. apply (run_chunks m kd ek k sn (all_chunks bs) n [] []); [apply all_chunks_okc | exact Hr | reflexivity |].
  apply honest_PR. exact Ha.
Qed.

(* enc_roundtrip_any_size: whatever an endpoint accepts - any number of batches of ANY size - is sealed in
   records that the peer (same key, counters in lock-step) decodes to exactly the frames that were sent,
   for every segmentation of the byte stream *)
Theorem enc_roundtrip_any_size m kd ek k sn n bs cs :
  Forall (admitted m) (flat bs) -> ctr_room n (length (all_chunks bs)) ->
  concat cs = concat (chunk_wires k n (all_chunks bs)) ->
  feed (sstep m) (smu key) 0 (rcv kd ek k sn n) [] cs =
    (rcv kd ek k sn (n + N.of_nat (length (all_chunks bs))), [], map RFrame (flat bs)).
Proof.
  intros Ha Hr Hc. rewrite feed_pump, Hc. apply (sk_Run_pump (sec_ok m)).
  rewrite <- (app_nil_r (concat _)), <- (app_nil_r (map RFrame _)).
  apply run_honest; [exact Ha | exact Hr |]. apply RunNeed. reflexivity.
Qed.

Lemma framed_through k : forall chs n rest c, Forall okc chs -> framed rest c ->
  framed (concat (chunk_wires k n chs) ++ rest) c.
Proof.
  induction chs as [|ch chs IH]; intros n rest c Hs Hf; [exact Hf|].
  inversion Hs; subst. cbn [SecFramer.chunk_wires concat]. rewrite <- app_assoc.
  destruct (record_hd (seal k n ch) (concat (chunk_wires k (n + 1) chs) ++ rest) (okc_ct k n ch H1)) as (E & _ & _ & Ht).
  apply framed_tl; [exact E|]. rewrite Ht. apply IH; assumption.
Qed.

Lemma framed_wires_inv k : forall chs n rest c, Forall okc chs -> framed (concat (chunk_wires k n chs) ++ rest) c ->
  (exists j ch, nth_error chs j = Some ch /\ c = seal k (n + N.of_nat j) ch) \/ framed rest c.
Proof.
  induction chs as [|ch chs IH]; intros n rest c Hs Hf; [right; exact Hf|].
  inversion Hs; subst. cbn [SecFramer.chunk_wires concat] in Hf. rewrite <- app_assoc in Hf.
  destruct (record_hd (seal k n ch) (concat (chunk_wires k (n + 1) chs) ++ rest) (okc_ct k n ch H1)) as (_ & _ & Hr & Ht).
  apply framed_inv in Hf as (_ & [-> | Hf]).
  - left. exists 0%nat, ch. rewrite Hr, N.add_0_r. auto.
  - rewrite Ht in Hf. destruct (IH _ _ _ H2 Hf) as [(j & ch' & Hn & ->) | Hf']; [left | right; exact Hf'].
    exists (S j), ch'. split; [exact Hn | f_equal; lia].
Qed.

Section Tamper.
Variables (m : Z) (kd : ckind) (ek k : key) (sn n0 : N).
Variable chs : list bytes.            (* the plaintext chunks the sender sealed, in order *)
Variables (dE : bytes) (FE : list frame).
Hypothesis Hgood : PR m (concat chs) dE FE.     (* the whole plaintext decodes to the frames FE *)
Hypothesis Hroom : ctr_room n0 (length chs).

(* one step of a receiver that is in lock-step after j records, on a buffer whose first record is unforged:
   it fails and closes, or that record is the (j+1)-th one sealed and its frames are handed out *)
Lemma step_safe j d fsj s st1 cnt o1 :
  (j <= length chs)%nat -> PR m (concat (firstn j chs)) d fsj ->
  (forall n p, n < U64 -> hd_rec s = seal k n p -> In (n, p) (sealed n0 chs)) ->
  sstep m (rcvd kd ek k sn (n0 + N.of_nat j) d) s = Step st1 cnt o1 ->
  (st1 = closed_st (rcvd kd ek k sn (n0 + N.of_nat j) d) /\ o1 = [RErr]) \/
  exists ch d1 g, nth_error chs j = Some ch /\ hd_rec s = seal k (n0 + N.of_nat j) ch /\
    PR m (concat (firstn (S j) chs)) d1 (fsj ++ g) /\
    st1 = rcvd kd ek k sn (n0 + N.of_nat (S j)) d1 /\ o1 = map RFrame g.
Proof.
  intros Hj HP Hu Hs. unfold ctr_room in Hroom.
  apply sstep_Step in Hs as (_ & _ & _ & Ho). rewrite on_record_eq in Ho by (unfold ctr_ok; lia).
  destruct (len (hd_rec s) <? TAG); [left; injection Ho as <- <-; auto|].
  destruct (open k (n0 + N.of_nat j) (hd_rec s)) as [pt|] eqn:Eo; [|left; injection Ho as <- <-; auto].
  right. apply open_auth in Eo.
  assert (nth_error chs j = Some pt) as Hn.
  { assert (n0 + N.of_nat j < U64) as Hlt by lia.
    destruct (sealed_in _ _ _ _ (Hu _ _ Hlt Eo)) as (j2 & Hn & Hjj). replace j with j2 by lia. exact Hn. }
  destruct (PR_next _ _ _ _ _ _ _ _ Hgood Hn HP) as (d1 & g & Hp1 & HP1).
  rewrite (PR_pump _ _ _ _ Hp1), map_map in Ho. injection Ho as <- <-.
  exists pt, d1, g. replace (n0 + N.of_nat (S j)) with (n0 + N.of_nat j + 1) by lia. auto.
Qed.

(* the invariant along an unforged stream: in lock-step after j' records, having handed out the frames
   complete in their plaintext - or closed, after one error *)
Lemma run_safe :
  forall st s st' r o, Run (sstep m) st s st' r o ->
  forall j d fsj, (j <= length chs)%nat -> st = rcvd kd ek k sn (n0 + N.of_nat j) d ->
  PR m (concat (firstn j chs)) d fsj -> unforged k (sealed n0 chs) s ->
  exists j' d' g, (j' <= length chs)%nat /\ PR m (concat (firstn j' chs)) d' (fsj ++ g) /\
    ((o = map RFrame g /\ st' = rcvd kd ek k sn (n0 + N.of_nat j') d') \/
     (o = map RFrame g ++ [RErr] /\ r_closed st' = true)).
Proof.
  intros st s st' r o HR.
  induction HR as [st s Hn | st s st1 cnt o1 st' r o' Hs HR IH]; intros j d fsj Hj Hst HP Hu.
  - exists j, d, []. split; [exact Hj|]. rewrite app_nil_r. split; [exact HP|]. left. auto.
  - subst st. pose proof (sstep_Step _ _ _ _ _ _ Hs) as (_ & E & -> & _).
    destruct (step_safe j d fsj s st1 _ o1 Hj HP (Hu _ (framed_hd s E)) Hs)
      as [[-> ->] | (ch & d1 & g1 & Hn & _ & HP1 & -> & ->)].
    + destruct (run_closed m (closed_st (rcvd kd ek k sn (n0 + N.of_nat j) d)) _ _ _ _ eq_refl HR) as (-> & _ & ->).
      exists j, d, []. split; [exact Hj|]. rewrite app_nil_r. split; [exact HP|]. right. auto.
    + assert (j < length chs)%nat as Hlt by (apply nth_error_Some; congruence).
      destruct (IH (S j) d1 (fsj ++ g1)) as (j' & d' & g & Hj' & HP' & Hres); [exact Hlt | reflexivity | exact HP1 | |].
      * intros c Hf. apply Hu. apply framed_tl; assumption.
      * exists j', d', (g1 ++ g). split; [exact Hj'|]. rewrite app_assoc. split; [exact HP'|].
        rewrite map_app. destruct Hres as [[-> ->] | [-> Hcl]]; [left | right]; rewrite <- ?app_assoc; auto.
Qed.

(* [j] intact records followed by [rest] that does not start with the (j+1)-th record: exactly the frames
   that are complete in the first j records are delivered; once [rest] holds a complete record the
   receiver fails and closes, until then it waits *)
Theorem tamper_detected j rest :
  Forall okc chs -> (j <= length chs)%nat -> wf_bytes (firstn 2 rest) = true ->
  (forall ch, nth_error chs j = Some ch -> ~ prefix (record_of (seal k (n0 + N.of_nat j) ch)) rest) ->
  unforged k (sealed n0 chs) (concat (chunk_wires k n0 (firstn j chs)) ++ rest) ->
  exists dj fsj, PR m (concat (firstn j chs)) dj fsj /\ prefix fsj FE /\
  let '(st', r, o) := pump (sstep m) (smu key) 0 (rcv kd ek k sn n0)
                           (concat (chunk_wires k n0 (firstn j chs)) ++ rest) in
  if complete rest
  then o = map RFrame fsj ++ [RErr] /\ r_closed st' = true
  else o = map RFrame fsj /\ st' = rcvd kd ek k sn (n0 + N.of_nat j) dj /\ r = rest.
Proof.
  intros Hok Hj Hwf Hnext Hu.
  destruct (PR_firstn m chs dE FE j Hgood) as (dj & fsj & HPj & Hpre).
  exists dj, fsj. split; [exact HPj|]. split; [exact Hpre|].
  rewrite <- (firstn_skipn j chs) in Hok. apply Forall_app in Hok as [Hok _].
  set (stj := rcvd kd ek k sn (n0 + N.of_nat j) dj).
  (* the j intact records bring the receiver to [stj] *)
  assert (forall s' r o, Run (sstep m) stj rest s' r o ->
            pump (sstep m) (smu key) 0 (rcv kd ek k sn n0) (concat (chunk_wires k n0 (firstn j chs)) ++ rest) =
            (s', r, map RFrame fsj ++ o)) as Hrun.
  { intros s' r o HR. apply (sk_Run_pump (sec_ok m)).
    apply (run_chunks m kd ek k sn (firstn j chs) n0 [] dj fsj); auto; rewrite firstn_length_le by exact Hj.
    - unfold ctr_room in *. lia.
    - exact HR. }
  pose proof (sstep_eq m stj rest) as Es. cbn [stj rcvd r_closed negb andb] in Es.
  destruct (complete rest) eqn:E.
  - destruct (on_record m stj (hd_rec rest)) as [st1 o1].
    destruct (step_safe j dj fsj rest st1 _ o1 Hj HPj (Hu _ (framed_through k _ n0 rest _ Hok (framed_hd rest E))) Es)
      as [[-> ->] | (ch & _ & _ & Hn & Hr & _)].
    + rewrite (Hrun (closed_st stj) (tl_rec rest) ([RErr] ++ [])); [auto|].
      eapply RunStep; [exact Es|]. apply RunNeed, closed_need. reflexivity.
    + exfalso. apply (Hnext ch Hn). rewrite <- Hr. exists (tl_rec rest). apply complete_prefix; assumption.
  - rewrite (Hrun stj rest [] (RunNeed _ _ _ _ _ Es)), app_nil_r. auto.
Qed.
End Tamper.

(* tamper_prefix_safety: for every sequence of batches (of any size) and EVERY unforged stream, cut in any
   way, the receiver hands out a prefix [fs] of the frames that were sent - exactly the frames that are
   complete in the plaintext of the first j' records, in order, once - and either stays in lock-step
   or has failed with an error and is closed. *)
Theorem tamper_prefix_safety m kd ek k sn n0 bs cs :
  Forall (admitted m) (flat bs) -> ctr_room n0 (length (all_chunks bs)) ->
  unforged k (sealed n0 (all_chunks bs)) (concat cs) ->
  let '(st', _, o) := feed (sstep m) (smu key) 0 (rcv kd ek k sn n0) [] cs in
  exists j' d' fs, (j' <= length (all_chunks bs))%nat /\
    PR m (concat (firstn j' (all_chunks bs))) d' fs /\ prefix fs (flat bs) /\
    ((o = map RFrame fs /\ st' = rcvd kd ek k sn (n0 + N.of_nat j') d') \/
     (o = map RFrame fs ++ [RErr] /\ r_closed st' = true)).
Proof.
  intros Ha Hr Hu. rewrite feed_pump.
  pose proof (sk_pump_Run (sec_ok m) (rcv kd ek k sn n0) (concat cs)) as HR.
  destruct (pump _ _ _ _ _) as [[st' r] o].
  pose proof (honest_PR m bs Ha) as Hgood.
  destruct (run_safe m kd ek k sn n0 (all_chunks bs) [] (flat bs) Hgood Hr _ _ _ _ _ HR 0%nat [] [])
    as (j' & d' & g & Hj & HP & Hres).
  - lia.
  - unfold rcv. replace (n0 + N.of_nat 0) with n0 by lia. reflexivity.
  - apply RunNeed. reflexivity.
  - exact Hu.
  - exists j', d', g. split; [exact Hj|]. split; [exact HP|]. split; [|exact Hres].
    destruct (PR_firstn m _ _ _ j' Hgood) as (d2 & fs2 & HP2 & Hpre).
    destruct (PR_det _ _ _ _ _ _ HP HP2) as [_ <-]. exact Hpre.
Qed.

(* no_cleartext (symbolic): what a write call emits is, per 65519-byte chunk of the plaintext, a length
   prefix computed from a length and ONE seal output *)
Theorem no_cleartext c b w c' : write_msg_batch c b = (SOk w, c') ->
  w = concat (chunk_wires (c_ek c) (c_sn c) (chunks (enc_contiguous b))).
Proof using open_seal open_auth. intros H. apply seal_chunks_shape in H. exact H. Qed.

(* the wire depends on the chunks only through the outputs of [seal] on them *)
Lemma seal_chunks_ni : forall chs1 chs2 c out,
  Forall2 (fun a b => forall n, seal (c_ek c) n a = seal (c_ek c) n b) chs1 chs2 ->
  seal_chunks c chs1 out = seal_chunks c chs2 out.
Proof.
  induction chs1 as [|a chs1 IH]; intros [|b chs2] c out HF; inversion HF as [|? ? ? ? Hab HF']; subst; [reflexivity|].
  cbn [SecFramer.seal_chunks].
  assert (len a = len b) as Hlen.
  { pose proof (seal_len (c_ek c) 0 a) as A. pose proof (seal_len (c_ek c) 0 b) as B. rewrite Hab in A. lia. }
  assert (encrypt c a = encrypt c b) as -> by (unfold SecFramer.encrypt; rewrite Hlen, Hab; reflexivity).
  destruct (encrypt c b) as [ct c1| |] eqn:E; try reflexivity.
  apply encrypt_ok in E as [_ ->]. apply IH. exact HF'.
Qed.

(* Noise: two sessions differ as soon as distinct ephemerals give distinct transport keys and ciphertexts
   under distinct keys differ (both idealisations are explicit premises) *)
Theorem sessions_differ_noise (statics eph : Type) (noise_split : bool -> statics -> eph -> eph -> key * key)
    server sk (e1 e2 e1' e2' : eph) b :
  (forall k k' n p, seal k n p = seal k' n p -> k = k') ->
  snd (noise_split server sk e1 e2) <> snd (noise_split server sk e1' e2') ->
  enc_contiguous b <> [] -> ctr_room 0 (length (chunks (enc_contiguous b))) ->
  fst (write_msg_batch (noise_data_cipher key statics eph noise_split server sk e1 e2) b) <>
  fst (write_msg_batch (noise_data_cipher key statics eph noise_split server sk e1' e2') b).
Proof.
  intros Hinj Hk Hne Hroom. unfold noise_data_cipher.
  destruct (noise_split server sk e1 e2) as [rx tx]. destruct (noise_split server sk e1' e2') as [rx' tx'].
  cbn [snd] in Hk. unfold cipher_new. cbn [ctr_start].
  destruct (chunks_nonempty _ Hne) as (ch & r & Hch).
  rewrite !write_ok by exact Hroom. cbn [fst c_ek c_sn]. rewrite Hch. cbn [SecFramer.chunk_wires concat].
  pose proof (chunks_okc (enc_contiguous b)) as Hok. rewrite Hch in Hok. apply Forall_inv in Hok.
  intros H. apply (f_equal wire_of) in H. cbn [wire_of] in H.
  (* the receiver's framing reads the first ciphertext back out of either wire *)
  apply (f_equal hd_rec) in H.
  destruct (record_hd (seal tx 0 ch) (concat (chunk_wires tx (0 + 1) r)) (okc_ct tx 0 ch Hok)) as (_ & _ & Hc & _).
  destruct (record_hd (seal tx' 0 ch) (concat (chunk_wires tx' (0 + 1) r)) (okc_ct tx' 0 ch Hok)) as (_ & _ & Hc' & _).
  rewrite Hc, Hc' in H. exact (Hk (Hinj _ _ _ _ H)).
Qed.

End IdealAead.
Unset Default Proof Using.
End Framer.

Definition ideal_aead {key : Type} (seal : key -> N -> bytes -> bytes) (open : key -> N -> bytes -> option bytes) : Prop :=
  (forall k n p, open k n (seal k n p) = Some p) /\
  (forall k n c p, open k n c = Some p -> c = seal k n p) /\
  (forall k n p, len (seal k n p) = len p + TAG).

(* the toy AEAD satisfies the laws: the hypotheses of Section IdealAead can be met *)
Lemma toy_tag_len k n p : length (toy_tag k n p) = 16%nat.
Proof. unfold toy_tag. rewrite !app_length, !be_bytes_length. reflexivity. Qed.

Lemma toy_open_seal k n p : toy_open k n (toy_seal k n p) = Some p.
Proof.
  unfold toy_open, toy_seal.
  destruct (firstn_skipn_app 16 (toy_tag k n p) p (toy_tag_len k n p)) as [Hf Hs].
  rewrite Hf, Hs, bytes_eqb_refl, app_length, toy_tag_len. reflexivity.
Qed.

Lemma toy_open_auth k n c p : toy_open k n c = Some p -> c = toy_seal k n p.
Proof.
  unfold toy_open, toy_seal. intros H.
  destruct ((16 <=? length c)%nat && bytes_eqb (firstn 16 c) (toy_tag k n (skipn 16 c))) eqn:E; [|discriminate].
  apply andb_prop in E. destruct E as [_ E]. apply bytes_eqb_eq in E.
  assert (p = skipn 16 c) as -> by congruence.
  rewrite <- E. symmetry. apply firstn_skipn.
Qed.

Lemma toy_seal_len k n p : len (toy_seal k n p) = len p + TAG.
Proof. unfold toy_seal, len. rewrite app_length, toy_tag_len. unfold TAG. lia. Qed.

Lemma toy_ideal : ideal_aead toy_seal toy_open.
Proof. split; [exact toy_open_seal | split; [exact toy_open_auth | exact toy_seal_len]]. Qed.

Lemma toy_seal_inj k n p n' p' : n < U64 -> n' < U64 -> toy_seal k n p = toy_seal k n' p' -> n = n' /\ p = p'.
Proof.
  intros Hn Hn' H. unfold toy_seal in H.
  pose proof (f_equal (firstn 16) H) as Hf. pose proof (f_equal (skipn 16) H) as Hs.
  destruct (firstn_skipn_app 16 (toy_tag k n p) p (toy_tag_len k n p)) as [A B].
  destruct (firstn_skipn_app 16 (toy_tag k n' p') p' (toy_tag_len k n' p')) as [A' B'].
  rewrite A, A' in Hf. rewrite B, B' in Hs. split; [|exact Hs].
  unfold toy_tag in Hf. apply (f_equal (firstn 8)) in Hf.
  rewrite !firstn_app_le, !firstn_all2 in Hf by (rewrite be_bytes_length; lia).
  apply (f_equal be_val) in Hf. rewrite !be_roundtrip in Hf. change (256 ^ N.of_nat 8) with U64 in Hf.
  rewrite !N.mod_small in Hf by assumption. exact Hf.
Qed.

(* a replayed record: the stream [w0 ++ w0] is unforged, so the tamper theorems apply to it *)
Definition ex_b0 : list (list frame) := [[ {| f_more := false; f_cmd := false; f_payload := [1; 2; 3] |} ]].
Definition ex_b1 : list (list frame) := [[ {| f_more := true; f_cmd := false; f_payload := [9] |};
                                          {| f_more := false; f_cmd := false; f_payload := fill 300 5 |} ]].
(* one frame of 70000 bytes: two records *)
Definition ex_big : list (list frame) := [[ {| f_more := false; f_cmd := false; f_payload := fill 70000 9 |} ]].
Definition ex_key : N := 23130.
(* compact view of a receiver output (payload digests instead of payloads) *)
Definition rsum (o : rout) : option (bool * bool * (N * N * bytes * bytes)) :=
  match o with RFrame f => Some (f_more f, f_cmd f, digest (f_payload f)) | _ => None end.
Definition ex_w0 : bytes := concat (chunk_wires N toy_seal ex_key 1 (all_chunks [ex_b0])).

Lemma ex_replay_unforged : unforged N toy_seal ex_key (sealed 1 (all_chunks [ex_b0; ex_b1])) (ex_w0 ++ ex_w0).
Proof.
  intros c Hc n p Hn Heq.
  (* the framing cuts the one record of [ex_w0] out of the stream twice, and nothing else *)
  assert (exists j ch, nth_error (all_chunks [ex_b0]) j = Some ch /\ c = toy_seal ex_key (1 + N.of_nat j) ch)
    as (j & ch & Hj & ->).
  { pose proof (fun rest => framed_wires_inv N toy_seal toy_open toy_open_seal toy_open_auth toy_seal_len ex_key
                  (all_chunks [ex_b0]) 1 rest c (all_chunks_okc _)) as Hinv.
    apply (Hinv ex_w0) in Hc as [Hin | Hc]; [exact Hin|].
    rewrite <- (app_nil_r ex_w0) in Hc. apply (Hinv []) in Hc as [Hin | Hc]; [exact Hin|].
    apply framed_inv in Hc as [E _]. discriminate. }
  (* [ex_b0] makes one chunk *)
  vm_compute in Hj. destruct j as [|[|j]]; try discriminate. injection Hj as <-.
  apply toy_seal_inj in Heq as [<- <-]; [left; reflexivity | reflexivity | exact Hn].
Qed.

Section Bundled.
Variable key : Type.
Variable seal : key -> N -> bytes -> bytes.
Variable open : key -> N -> bytes -> option bytes.
Hypothesis ideal : ideal_aead seal open.
Let h1 := proj1 ideal.
Let h2 := proj1 (proj2 ideal).
Let h3 := proj2 (proj2 ideal).

Lemma x_stepper_ok m : stepper_ok (sstep key open m) (smu key) 0.
Proof using ideal. apply sec_ok. Qed.
Definition x_heartbeat_swallowed := heartbeat_swallowed key seal open h1 h2 h3.
End Bundled.
