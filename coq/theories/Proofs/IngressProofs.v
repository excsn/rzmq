(* Receiving side: for EVERY queue discipline and every history of Recv / RecvMultipart / Enqueue / Register /
   Deregister / Close, what the application is handed is the concatenation of the batches taken off the queue,
   frame by frame, in order.  Only close() of the socket itself abandons a half-read message.
   (Before the repairs of C02 findings 1 and 2 two more classes failed: deregister_pipe of any pipe cleared the
   cache, and DEALER/ROUTER recv_multipart jumped over a half-read message; their witnesses are kept below and
   now deliver whole.)
   The DEALER/ROUTER engine is stated for any envelope function: but for recv_multipart out of a non-empty
   cache and close(), a step of the PULL/SUB engine is a step of that one with the identity envelope. *)
From RZ Require Import Base.Prelude Model.Codec Model.RouterMap Model.Envelope Model.FrameBatch Model.SendFlags
  Model.Ingress Proofs.FrameBatchProofs Proofs.EnvelopeProofs Proofs.SendFlagsProofs.
Local Open Scope N_scope.

(* the last frame (if any) has no MORE *)
Definition last_nomore (l : list frame) : Prop := forall init x, l = init ++ [x] -> fmore x = false.
(* a batch as the engine / the inproc reader hand it to the queue: non-empty, at most 255 frames, last frame
   without MORE (ZmtpEngine::process_data cuts exactly there) *)
Definition good (b : batch) : Prop :=
  fb_canon b /\ fb_list b <> [] /\ (length (fb_list b) <= 255)%nat /\ last_nomore (fb_list b).
Definition popped_frames (es : list ev) : list frame := concat (map fb_list (popped es)).

Lemma last_nomore_suffix (a r : list frame) : last_nomore (a ++ r) -> last_nomore r.
Proof. intros H init x E. apply (H (a ++ init) x). rewrite E, app_assoc. reflexivity. Qed.
Lemma last_nomore_nil : last_nomore [].
Proof. intros init x E. destruct init; discriminate. Qed.
Lemma last_nomore_app (a r : list frame) : r <> [] -> last_nomore r -> last_nomore (a ++ r).
Proof.
  intros Hn H init x E. destruct (exists_last Hn) as (r' & y & ->). rewrite app_assoc in E.
  apply app_inj_tail in E. destruct E as [_ <-]. exact (H r' y eq_refl).
Qed.
Lemma last_nomore_good (bs : list batch) : Forall good bs ->
  forall a, last_nomore a -> last_nomore (a ++ concat (map fb_list bs)).
Proof.
  induction 1 as [|b bs (_ & Hn & _ & Hl) _ IH]; intros a Ha; cbn [map concat]; [rewrite app_nil_r; exact Ha|].
  rewrite app_assoc. apply IH, last_nomore_app; assumption.
Qed.
Lemma more_ok_last_nomore (l : list frame) : more_ok l -> last_nomore l.
Proof.
  induction l as [|f [|g t] IH]; intros M init x E.
  - destruct init; discriminate.
  - destruct init as [|y init]; [injection E as <-; apply more_ok_single; exact M|].
    destruct init; discriminate.
  - destruct (more_ok_tail f g t M) as [_ Mt]. destruct init as [|y init]; [discriminate|].
    injection E as _ E. exact (IH Mt init x E).
Qed.

Lemma take_message_split d :
  let '(tk, c, r) := take_message d in d = tk ++ r /\ (c = false -> r = []) /\ (c = true -> tk <> []).
Proof.
  induction d as [|f t IH]; cbn [take_message].
  - split; [reflexivity|]. split; [reflexivity | discriminate].
  - destruct (fmore f).
    + destruct (take_message t) as [[tk c] r]. destruct IH as (-> & H1 & H2).
      split; [reflexivity|]. split; [exact H1 | discriminate].
    + split; [reflexivity|]. split; discriminate.
Qed.
Lemma take_message_complete d : d <> [] -> last_nomore d -> snd (fst (take_message d)) = true.
Proof.
  induction d as [|f t IH]; intros Hn Hl; [congruence|]. cbn [take_message].
  destruct (fmore f) eqn:Ef; [|reflexivity].
  destruct t as [|g t'].
  - specialize (Hl [] f eq_refl). congruence.
  - assert (snd (fst (take_message (g :: t'))) = true) as H.
    { apply IH; [discriminate|]. apply (last_nomore_suffix [f]). exact Hl. }
    destruct (take_message (g :: t')) as [[tk c] r]. exact H.
Qed.
(* with MORE exactly on all but the last frame the whole remainder is one message *)
Lemma take_message_more_ok d : d <> [] -> more_ok d -> take_message d = (d, true, []).
Proof.
  induction d as [|f [|g t] IH]; intros Hn M; [congruence| |].
  - cbn [take_message]. rewrite (more_ok_single f M). reflexivity.
  - destruct (more_ok_tail f g t M) as [Hf Mt].
    change (take_message (f :: g :: t))
      with (if fmore f then let '(tk, c, r) := take_message (g :: t) in (f :: tk, c, r) else ([f], true, g :: t)).
    rewrite Hf, (IH ltac:(discriminate) Mt). reflexivity.
Qed.

Lemma split_first_good (b : batch) f rest : fb_canon b -> fb_list b = f :: rest ->
  split_first b = Ok (f, match rest with [] => None | _ => Some rest end).
Proof.
  intros C E. unfold split_first. rewrite (canon_is_empty b C), E. cbn [nonnil negb]. unfold fb_len. rewrite E.
  destruct rest as [|g t]; cbn [length Nat.eqb].
  - destruct (fb_remove0 f [] b E) as (b' & -> & _). reflexivity.
  - reflexivity.
Qed.
Lemma extend_new (d : list frame) : (length d <= VEC_MAX)%nat -> exists bt, fb_extend fb_new d = Ok bt /\ fb_list bt = d.
Proof. exact (fb_extend_ok d fb_new). Qed.

Definition ev_panic (e : ev) : bool := match e with EvRet RPanic _ => true | _ => false end.
Definition ev_returned (e : ev) : list frame := returned [e].
Definition ev_popped (e : ev) : list batch := popped [e].

Lemma returned_cons e es : returned (e :: es) = ev_returned e ++ returned es.
Proof. unfold ev_returned. destruct e as [r p| | |]; cbn [returned]; rewrite ?app_nil_r; reflexivity. Qed.
Lemma popped_cons e es : popped (e :: es) = ev_popped e ++ popped es.
Proof. unfold ev_popped. destruct e as [r [[p b]|]| | |]; reflexivity. Qed.
Lemma has_panic_cons e es : has_panic (e :: es) = ev_panic e || has_panic es.
Proof. reflexivity. Qed.
Lemma cache_frames_tail (rest : list frame) :
  cache_frames (match rest with [] => None | _ => Some rest end) = rest.
Proof. destruct rest; reflexivity. Qed.

(* DEALER / ROUTER frame_recv_buffer *)
Section Addressed.
Context {Q : Type} (qo : qops Q).
Context (process : pipe -> batch -> out batch).

(* processed batches the application can tell apart from "nothing": canonical, non-empty, at most 255 frames *)
Definition pgood (e : ev) : Prop :=
  match e with
  | EvRet _ (Some (p, raw)) =>
      exists b, process p raw = Ok b /\ fb_canon b /\ fb_list b <> [] /\ (length (fb_list b) <= 255)%nat
  | _ => True
  end.
Definition ev_processed (e : ev) : list frame :=
  match e with
  | EvRet _ (Some (p, raw)) => match process p raw with Ok b => fb_list b | Panic => [] end
  | _ => []
  end.
Definition processed_frames (es : list ev) : list frame := concat (map ev_processed es).
Definition buf_inv (c : cache) : Prop := (length (cache_frames c) <= 255)%nat.
Lemma buf_inv_none : buf_inv None.
Proof. apply Nat.le_0_l. Qed.
Lemma buf_inv_tail f rest : buf_inv (Some (f :: rest)) -> buf_inv (match rest with [] => None | _ => Some rest end).
Proof. unfold buf_inv. rewrite cache_frames_tail. apply Nat.lt_le_incl. Qed.

(* one step: frames in the buffer ++ frames taken in = frames returned ++ frames left in the buffer *)
Definition step_ok (c : cache) (r : @astate Q * ev) : Prop :=
  cache_frames c ++ ev_processed (snd r) = ev_returned (snd r) ++ cache_frames (snd (fst r))
  /\ buf_inv (snd (fst r)) /\ ev_panic (snd r) = false.
Lemma step_ok_ret c (q' : Q) c' r pp : r <> RPanic -> buf_inv c' ->
  cache_frames c ++ ev_processed (EvRet r pp) = ret_frames r ++ cache_frames c' -> step_ok c ((q', c'), EvRet r pp).
Proof.
  intros Hr L E. unfold step_ok, ev_returned. cbn [fst snd returned]. rewrite app_nil_r.
  split; [exact E|]. split; [exact L|]. destruct r; try reflexivity. congruence.
Qed.
Lemma step_ok_quiet c (q' : Q) e : buf_inv c -> match e with EvRet _ _ => False | _ => True end ->
  step_ok c ((q', c), e).
Proof.
  intros L He. destruct e; [contradiction| | |]; (split; [cbn; rewrite app_nil_r; reflexivity | split; [exact L | reflexivity]]).
Qed.

(* the two ways the receive calls take a batch off the queue: what fbuf_recv / fbuf_recv_multipart reduce to
   when the buffer holds no frame *)
Definition pop_first (q : Q) : @astate Q * ev :=
  let '(q', r) := qo_pop qo q in
  match r with
  | None => ((q', None), EvRet RWouldBlock None)
  | Some (p, raw) =>
      match bind (process p raw) split_first with
      | Panic => ((q', None), EvRet RPanic (Some (p, raw)))
      | Ok (f, stash) => ((q', stash), EvRet (RFrame f) (Some (p, raw)))
      end
  end.
Definition pop_whole (q : Q) : @astate Q * ev :=
  let '(q', r) := qo_pop qo q in
  match r with
  | None => ((q', None), EvRet RWouldBlock None)
  | Some (p, raw) =>
      match process p raw with
      | Panic => ((q', None), EvRet RPanic (Some (p, raw)))
      | Ok b => ((q', None), EvRet (RBatch (fb_list b)) (Some (p, raw)))
      end
  end.
Lemma pop_first_ok q : pgood (snd (pop_first q)) -> step_ok None (pop_first q).
Proof.
  unfold pop_first. destruct (qo_pop qo q) as [q' [[p raw]|]]; intros G.
  - (* pgood looks at the popped pair only, which both outcomes share *)
    assert (pgood (EvRet RWouldBlock (Some (p, raw)))) as (b & Eb & C & Hn & Lb).
    { destruct (bind (process p raw) split_first) as [[f stash]|]; exact G. }
    rewrite Eb. cbn [bind]. destruct (fb_list b) as [|f rest] eqn:E; [congruence|].
    rewrite (split_first_good b f rest C E). cbv beta iota.
    apply step_ok_ret; [discriminate | apply (buf_inv_tail f), Lb |].
    cbn [ev_processed]. rewrite Eb. cbn [cache_frames ret_frames app]. rewrite E, cache_frames_tail. reflexivity.
  - apply step_ok_ret; [discriminate | apply buf_inv_none | reflexivity].
Qed.
Lemma pop_whole_ok q : pgood (snd (pop_whole q)) -> step_ok None (pop_whole q).
Proof.
  unfold pop_whole. destruct (qo_pop qo q) as [q' [[p raw]|]]; intros G.
  - assert (pgood (EvRet RWouldBlock (Some (p, raw)))) as (b & Eb & _).
    { destruct (process p raw); exact G. }
    rewrite Eb. cbv beta iota. apply step_ok_ret; [discriminate | apply buf_inv_none |].
    cbn [ev_processed cache_frames ret_frames app]. rewrite Eb, app_nil_r. reflexivity.
  - apply step_ok_ret; [discriminate | apply buf_inv_none | reflexivity].
Qed.

(* a recv_multipart in the middle of a message returns exactly its unread frames and empties the buffer *)
Lemma fbuf_recv_multipart_remainder (q : Q) (d : list frame) : d <> [] -> (length d <= VEC_MAX)%nat ->
  fbuf_recv_multipart qo process (q, Some d) = ((q, None), EvRet (RBatch d) None).
Proof.
  intros Hn L. destruct d as [|f rest]; [congruence|]. unfold fbuf_recv_multipart.
  destruct (extend_new (f :: rest) L) as (bt & -> & Lbt). cbv beta iota. rewrite Lbt. reflexivity.
Qed.

Lemma fbuf_step_accounting o (q : Q) c : buf_inv c -> pgood (snd (fbuf_step qo process o (q, c))) ->
  step_ok c (fbuf_step qo process o (q, c)).
Proof.
  intros Ib. destruct o as [| |h b|p|p|]; cbn [fbuf_step].
  - destruct c as [[|f rest]|]; [exact (pop_first_ok q) | | exact (pop_first_ok q)].
    intros _. cbn [fbuf_recv]. apply step_ok_ret; [discriminate | apply (buf_inv_tail f), Ib | cbn].
    rewrite app_nil_r, cache_frames_tail. reflexivity.
  - destruct c as [[|f rest]|]; [exact (pop_whole_ok q) | | exact (pop_whole_ok q)].
    intros _. rewrite fbuf_recv_multipart_remainder by (discriminate || exact Ib).
    apply step_ok_ret; [discriminate | apply buf_inv_none | reflexivity].
  - destruct (qo_enq qo h b q) as [q' ok]. intros _. apply step_ok_quiet; [exact Ib | exact I].
  - destruct (qo_reg qo p q) as [q' h]. intros _. apply step_ok_quiet; [exact Ib | exact I].
  - intros _. apply step_ok_quiet; [exact Ib | exact I].
  - intros _. apply step_ok_quiet; [exact Ib | exact I].
Qed.

(* every history, any mix of recv and recv_multipart, any attach / detach / close meanwhile *)
Theorem fbuf_accounting : forall os st st' es,
  fbuf_run qo process os st = (st', es) -> buf_inv (snd st) -> Forall pgood es ->
  cache_frames (snd st) ++ processed_frames es = returned es ++ cache_frames (snd st') /\ has_panic es = false.
Proof.
  induction os as [|o t IH]; intros [q c] st' es H Ib Hg.
  - injection H as <- <-. unfold processed_frames. cbn. rewrite app_nil_r. auto.
  - cbn [fbuf_run] in H. pose proof (fbuf_step_accounting o q c Ib) as S1.
    destruct (fbuf_step qo process o (q, c)) as [st1 e]. destruct (fbuf_run qo process t st1) as [st2 es2] eqn:E2.
    injection H as <- <-. inversion Hg as [|? ? G1 G2]; subst. destruct (S1 G1) as (A1 & I1 & P1). cbn [fst snd] in *.
    destruct (IH st1 st2 es2 E2 I1 G2) as (A2 & P2).
    unfold processed_frames in *. cbn [map concat]. rewrite returned_cons, has_panic_cons, P1, P2.
    split; [|reflexivity]. rewrite app_assoc, A1, <- app_assoc, A2, app_assoc. reflexivity.
Qed.
End Addressed.

(* AnonymousIngressEngine *)
Section Anonymous.
Context {Q : Type} (qo : qops Q).

Definition cache_inv (c : cache) : Prop :=
  last_nomore (cache_frames c) /\ (length (cache_frames c) <= 255)%nat.

(* does this operation discard a half-read message?  only closing the socket does *)
Definition drops (o : op) (c : cache) : bool :=
  match o with
  | OClose => nonnil (cache_frames c)
  | _ => false
  end.
Fixpoint no_drop (os : list op) (st : astate) : bool :=
  match os with
  | [] => true
  | o :: t => negb (drops o (snd st)) && no_drop t (fst (anon_step qo o st))
  end.

Local Notation idp := (fun (_ : pipe) (b : batch) => Ok b).

Lemma anon_step_addressed o (q : Q) c :
  match o, c with
  | ORecvMultipart, Some (_ :: _) | OClose, _ => True
  | _, _ => anon_step qo o (q, c) = fbuf_step qo idp o (q, c)
  end.
Proof. destruct o, c as [[|f r]|]; first [reflexivity | exact I]. Qed.
Lemma ev_processed_id e : ev_processed idp e = concat (map fb_list (ev_popped e)).
Proof. destruct e as [r [[p b]|]| | |]; cbn; rewrite ?app_nil_r; reflexivity. Qed.
Lemma pgood_id e : Forall good (ev_popped e) -> pgood idp e.
Proof.
  destruct e as [r [[p b]|]| | |]; cbn; try exact (fun _ => I).
  intros G. destruct (Forall_inv G) as (C & Hn & L & _). exists b. repeat split; assumption.
Qed.

(* one step: frames in the cache ++ frames popped = frames returned ++ frames left in the cache *)
Definition anon_ok (c : cache) (r : @astate Q * ev) : Prop :=
  cache_frames c ++ concat (map fb_list (ev_popped (snd r))) = ev_returned (snd r) ++ cache_frames (snd (fst r))
  /\ cache_inv (snd (fst r)) /\ ev_panic (snd r) = false.
(* what is left in the cache is the end of what was there followed by what was popped *)
Lemma anon_ok_addressed c r : cache_inv c -> Forall good (ev_popped (snd r)) -> step_ok idp c r -> anon_ok c r.
Proof.
  intros [Il Ib] G (A & B & P). rewrite ev_processed_id in A. split; [exact A|]. split; [|exact P].
  split; [|exact B]. apply (last_nomore_suffix (ev_returned (snd r))). rewrite <- A. apply last_nomore_good; assumption.
Qed.

Lemma anon_step_accounting o (q : Q) c : cache_inv c -> drops o c = false ->
  Forall good (ev_popped (snd (anon_step qo o (q, c)))) -> anon_ok c (anon_step qo o (q, c)).
Proof.
  intros I Hd. pose proof (anon_step_addressed o q c) as E.
  assert (anon_step qo o (q, c) = fbuf_step qo idp o (q, c) ->
          Forall good (ev_popped (snd (anon_step qo o (q, c)))) -> anon_ok c (anon_step qo o (q, c))) as Hadd.
  { intros -> G. apply (anon_ok_addressed c _ I G). apply fbuf_step_accounting; [exact (proj2 I) | apply pgood_id, G]. }
  destruct o as [| |h b|p|p|]; try exact (Hadd E).
  - (* RecvMultipart *)
    destruct c as [[|f t]|]; try exact (Hadd E). clear E Hadd. intros _.
    destruct I as [Il Ib]. change 255%nat with VEC_MAX in Ib. cbn [cache_frames] in *.
    cbn [anon_step anon_recv_multipart].
    pose proof (take_message_split (f :: t)) as Hs. pose proof (take_message_complete (f :: t) ltac:(discriminate) Il) as Hc.
    destruct (take_message (f :: t)) as [[tk c] r]. cbn [fst snd] in Hc. subst c. destruct Hs as (Ed & _ & _).
    rewrite Ed, app_length in Ib. destruct (extend_new tk) as (bt & -> & ->); [lia|].
    split; [cbn; rewrite !app_nil_r, cache_frames_tail; exact Ed|]. split; [|reflexivity].
    unfold cache_inv. change 255%nat with VEC_MAX. cbn [fst snd]. rewrite cache_frames_tail.
    split; [rewrite Ed in Il; exact (last_nomore_suffix tk r Il) | lia].
  - (* Close *)
    clear E Hadd. intros _. cbn [drops] in Hd. unfold anon_ok. cbn. destruct (cache_frames c); [|discriminate].
    split; [reflexivity|]. split; [split; [apply last_nomore_nil | apply Nat.le_0_l] | reflexivity].
Qed.

Theorem anon_accounting : forall os st st' es,
  anon_run qo os st = (st', es) -> cache_inv (snd st) -> no_drop os st = true -> Forall good (popped es) ->
  cache_frames (snd st) ++ popped_frames es = returned es ++ cache_frames (snd st') /\ has_panic es = false.
Proof.
  induction os as [|o t IH]; intros [q c] st' es H I Hd Hg.
  - injection H as <- <-. unfold popped_frames. cbn. rewrite app_nil_r. auto.
  - cbn [anon_run] in H. cbn [no_drop snd] in Hd. apply andb_prop in Hd. destruct Hd as [Hd1 Hd2].
    apply negb_true_iff in Hd1. pose proof (anon_step_accounting o q c I Hd1) as S1.
    destruct (anon_step qo o (q, c)) as [st1 e]. destruct (anon_run qo t st1) as [st2 es2] eqn:E2. injection H as <- <-.
    rewrite popped_cons in Hg. apply Forall_app in Hg. destruct Hg as [G1 G2].
    destruct (S1 G1) as (A1 & I1 & P1). cbn [fst snd] in *. destruct (IH st1 st2 es2 E2 I1 Hd2 G2) as (A2 & P2).
    unfold popped_frames in *. rewrite popped_cons, returned_cons, has_panic_cons, map_app, concat_app, P1, P2.
    split; [|reflexivity]. rewrite app_assoc, A1, <- app_assoc, A2, app_assoc. reflexivity.
Qed.

(* every history of recv / recv_multipart / enqueue / register / deregister (the socket is not closed meanwhile) *)
Definition no_close (os : list op) : Prop := Forall (fun o => o <> OClose) os.
Lemma no_close_no_drop : forall os st, no_close os -> no_drop os st = true.
Proof.
  induction os as [|o t IH]; intros st H; [reflexivity|]. inversion H as [|? ? Ho Ht]; subst.
  cbn [no_drop]. rewrite (IH _ Ht), andb_true_r. destruct o; try reflexivity. congruence.
Qed.

(* histories that only use recv_multipart never touch the cache: every result is exactly one queued batch,
   whatever is registered, deregistered or closed meanwhile *)
Definition no_recv (os : list op) : Prop := Forall (fun o => o <> ORecv) os.
Theorem anon_multipart_only : forall os q st' es,
  anon_run qo os (q, None) = (st', es) -> no_recv os ->
  snd st' = None /\ returned es = popped_frames es /\ has_panic es = false /\
  Forall (fun e => match e with EvRet (RBatch fs) (Some (_, b)) => fs = fb_list b
                              | EvRet (RBatch _) None => False | _ => True end) es.
Proof.
  induction os as [|o t IH]; intros q st' es H Hn.
  - injection H as <- <-. cbn. auto.
  - inversion Hn as [|? ? Ho Ht]; subst. cbn [anon_run] in H.
    destruct (anon_step qo o (q, None)) as [st1 e] eqn:E1.
    destruct (anon_run qo t st1) as [st2 es2] eqn:E2. injection H as <- <-.
    assert (exists q1, st1 = (q1, None) /\ ev_returned e = concat (map fb_list (ev_popped e)) /\ ev_panic e = false /\
              match e with EvRet (RBatch fs) (Some (_, b)) => fs = fb_list b
                         | EvRet (RBatch _) None => False | _ => True end) as (q1 & -> & R1 & P1 & F1).
    { destruct o as [| |h b|p|p|]; cbn [anon_step anon_recv_multipart] in E1.
      - congruence.
      - unfold anon_pop_whole in E1. destruct (qo_pop qo q) as [q' [[p b]|]]; injection E1 as <- <-.
        + exists q'. cbn. rewrite !app_nil_r. auto.
        + exists q'. cbn. auto.
      - destruct (qo_enq qo h b q) as [q' ok]. injection E1 as <- <-. exists q'. cbn. auto.
      - destruct (qo_reg qo p q) as [q' h]. injection E1 as <- <-. exists q'. cbn. auto.
      - injection E1 as <- <-. eexists. cbn. auto.
      - injection E1 as <- <-. eexists. cbn. auto. }
    destruct (IH q1 st2 es2 E2 Ht) as (C2 & R2 & P2 & F2).
    unfold popped_frames in *. rewrite returned_cons, popped_cons, has_panic_cons, map_app, concat_app, R1, R2, P1, P2.
    split; [exact C2|]. split; [reflexivity|]. split; [reflexivity|]. constructor; assumption.
Qed.

End Anonymous.

(* envelope handling on receive: limits *)
Lemma strip_delim_fb_eq (b : batch) : fb_canon b ->
  exists w, strip_delim_fb b = Ok w /\ fb_canon w /\
            fb_list w = match fb_list b with f0 :: rest => if fempty f0 then rest else f0 :: rest | [] => [] end.
Proof.
  intros C. unfold strip_delim_fb. rewrite (canon_is_empty b C).
  destruct (fb_list b) as [|f0 rest] eqn:E; cbn [nonnil negb]; [exists b; rewrite E; auto|].
  rewrite (fb_index0 b f0 rest E). cbn [bind]. destruct (fempty f0); [|exists b; rewrite E; auto].
  destruct (fb_remove0 f0 rest b E) as (b' & Er & L'). rewrite Er. cbn [bind]. exists b'.
  split; [reflexivity|]. split; [eapply remove_canon; exact Er | exact L'].
Qed.
Lemma router_process_fb_eq manual pt (raw : batch) : fb_canon raw ->
  exists p, router_process_fb manual pt raw = Ok p /\ fb_canon p /\
            fb_list p = router_process_incoming manual pt (fb_list raw).
Proof.
  intros C. unfold router_process_fb, router_process_incoming. destruct manual; [eauto|].
  destruct (strip_delim_fb_eq raw C) as (w & Hw & Cw & Lw).
  assert (fb_list w = match fb_list raw with f0 :: rest => if fempty f0 then rest else fb_list raw | [] => fb_list raw end) as Lw'.
  { rewrite Lw. destruct (fb_list raw) as [|f0 rest]; [reflexivity|]. destruct (fempty f0); reflexivity. }
  destruct pt as [[| | |]|]; eauto.
Qed.

(* the payload part never grows; it keeps all its frames when there is no delimiter to strip *)
Lemma router_recv_length manual pt id l : (length (router_recv manual pt id l) <= S (length l))%nat.
Proof.
  unfold router_recv, router_transform, router_process_incoming. rewrite clear_last_length. cbn [length].
  destruct manual; [lia|]. destruct pt as [[| | |]|], l as [|f0 rest]; cbn [length]; try lia;
    destruct (fempty f0); cbn [length]; lia.
Qed.
Lemma router_recv_length_kept manual pt id f0 rest :
  manual = true \/ pt = Some TRouter \/ fempty f0 = false ->
  length (router_recv manual pt id (f0 :: rest)) = S (S (length rest)).
Proof.
  unfold router_recv, router_transform, router_process_incoming. rewrite clear_last_length.
  intros [-> | [-> | ->]]; [reflexivity | destruct manual; reflexivity | destruct manual, pt as [[| | |]|]; reflexivity].
Qed.

(* ROUTER recv: the identity frame is prepended with FrameBatch::with_capacity(1 + n) *)
Lemma router_transform_fb_builds id (payload : batch) : fb_canon payload ->
  builds (router_transform_fb id payload) (router_transform id (fb_list payload)).
Proof.
  intros C. unfold router_transform_fb, router_transform, fb_len, builds. rewrite clear_last_length. cbn [length].
  pose proof (@fb_with_capacity_case frame (1 + length (fb_list payload))) as S0.
  destruct (fb_with_capacity (1 + length (fb_list payload))) as [r0|]; cbn [bind]; [|exact S0]. destruct S0 as [L0 B0].
  destruct (fb_push_ok r0 (negb (fb_is_empty payload), id)) as (r1 & -> & L1); [rewrite L0; cbn; lia|]. cbn [bind].
  destruct (fb_extend_ok (fb_list payload) r1) as (r2 & -> & L2); [rewrite L1, L0; cbn [app length]; lia|]. cbn [bind].
  split; [|exact B0]. rewrite fb_clear_last_list, L2, L1, L0, (canon_is_empty payload C), negb_involutive. reflexivity.
Qed.
(* recv()/recv_multipart() of a ROUTER build the list-level result - and so panic when it has 256 frames *)
Theorem router_recv_fb_builds manual pt id (raw : batch) : fb_canon raw ->
  builds (router_recv_fb manual pt id raw) (router_recv manual pt id (fb_list raw)).
Proof.
  intros C. unfold router_recv_fb, router_recv. destruct (router_process_fb_eq manual pt raw C) as (p & -> & Cp & <-).
  apply router_transform_fb_builds. exact Cp.
Qed.

(* rep_socket.rs extract_routing_prefix: up to 255 frames it does not panic and loses no frame *)
Lemma rep_extract_fb_sound : forall (fs : list frame) found (pr pl : batch),
  (length (fb_list pr) + length (fb_list pl) + length fs <= 255)%nat ->
  exists found' pr' pl', rep_extract_fb fs found pr pl = Ok (found', pr', pl') /\
    (length (fb_list pr') + length (fb_list pl') = length (fb_list pr) + length (fb_list pl) + length fs)%nat /\
    (found = true -> found' = true /\ fb_list pr' = fb_list pr /\ fb_list pl' = fb_list pl ++ fs).
Proof.
  change 255%nat with VEC_MAX. induction fs as [|f t IH]; intros found pr pl L; cbn [rep_extract_fb].
  - exists found, pr, pl. cbn [length]. split; [reflexivity|]. split; [lia|]. intros ->. rewrite app_nil_r. auto.
  - cbn [length] in L. destruct found.
    + destruct (fb_push_ok pl f) as (pl1 & -> & L1); [lia|]. cbn [bind].
      destruct (IH true pr pl1) as (f' & pr' & pl' & E & Hl & Hf); [rewrite L1, app_length; cbn [length]; lia|].
      exists f', pr', pl'. split; [exact E|]. rewrite L1, app_length in Hl. cbn [length] in *. split; [lia|].
      intros _. destruct (Hf eq_refl) as (-> & -> & ->). rewrite L1, <- app_assoc. auto.
    + destruct (fb_push_ok pr f) as (pr1 & -> & L1); [lia|]. cbn [bind].
      destruct (IH (fempty f) pr1 pl) as (f' & pr' & pl' & E & Hl & _); [rewrite L1, app_length; cbn [length]; lia|].
      exists f', pr', pl'. split; [exact E|]. rewrite L1, app_length in Hl. cbn [length] in *. split; [lia | discriminate].
Qed.

(* whole, flag-correct messages (what send_multipart of PUSH/PUB/DEALER/REP puts on the pipe) pass unchanged *)
Theorem inproc_whole_messages : forall (ms : list (list frame)),
  Forall (fun m => m <> [] /\ more_ok m /\ (length m <= VEC_MAX)%nat) ms ->
  exists out, inproc_run fb_new ms = Ok (fb_new, out) /\ map fb_list out = ms.
Proof.
  induction ms as [|m t IH]; intros H.
  - exists []. auto.
  - inversion H as [|? ? (Hn & M & L) Ht]; subst. destruct (IH Ht) as (out & E & Lo).
    cbn [inproc_run]. unfold inproc_feed.
    destruct (extend_new m L) as (acc & -> & La). cbn [bind].
    destruct (more_ok_split m Hn M) as (init & last & Em & _ & Hl).
    rewrite La, Em, rev_app_distr. change (List.rev [last] ++ List.rev init) with (last :: List.rev init). cbv iota. rewrite Hl. cbn [bind]. fold (@fb_new frame). rewrite E. cbn [bind].
    exists (acc :: out). split; [reflexivity|]. cbn [map]. rewrite La, Lo, Em. reflexivity.
Qed.
(* parts sent one by one all carry MORE and pile up in the accumulator: the one that would be its 256th frame
   panics in FrameBatch::push *)
Lemma inproc_parts_panic (f : frame) : fmore f = true -> forall n acc,
  (length (fb_list acc) + n = VEC_MAX)%nat -> inproc_run acc (repeat [f] (S n)) = Panic.
Proof.
  intros Hf. induction n as [|n IH]; intros acc L.
  - rewrite Nat.add_0_r in L. cbn [repeat inproc_run]. unfold inproc_feed. cbn [fb_extend].
    rewrite (fb_push_panic acc f L). reflexivity.
  - change (repeat [f] (S (S n))) with ([f] :: repeat [f] (S n)). cbn [inproc_run]. unfold inproc_feed. cbn [fb_extend].
    destruct (fb_push_ok acc f) as (acc1 & -> & L1); [rewrite <- L; lia|]. cbn [bind].
    rewrite L1, rev_app_distr. cbn [List.rev app]. rewrite Hf. cbn [bind].
    rewrite IH; [reflexivity|]. rewrite L1, app_length, <- L. cbn [length]. lia.
Qed.

(* inputs of the examples of Props/C02.v *)
Definition fr (more : bool) (x : N) : frame := (more, [x]).
Definition msgA : batch := FMany [fr true 10; fr true 11; fr false 12].
Definition msgB : batch := FSingle (fr false 20).

(* PULL/SUB: peer 1 sent A (three frames); the application has read the first frame; a DIFFERENT, idle peer
   (pipe 3) disconnects.  Before the repair frames 2 and 3 of A were gone; now A is delivered whole. *)
Definition wit_deregister : list op :=
  [ORegister 1; ORegister 3; OEnqueue 0%nat msgA; ORecv; ODeregister 3; ORecv; ORecv; OEnqueue 0%nat msgB; ORecv].

(* DEALER/ROUTER: recv() has returned frame 1 of A; recv_multipart() now returns the rest of A (it used to
   return B); the next recv() returns B *)
Definition wit_mixed : list op :=
  [ORegister 1; OEnqueue 0%nat msgA; OEnqueue 0%nat msgB; ORecv; ORecvMultipart; ORecv; ORecv].

(* a request/reply whose payload has more than one frame: recv() hands out frame 1 WITH its MORE flag and
   the rest is gone (the next recv() of a REP is refused until it has replied; a REQ waits for the next reply) *)
Definition wit_multi_request : batch := FMany [(true, []); fr true 1; fr true 2; fr false 3].
