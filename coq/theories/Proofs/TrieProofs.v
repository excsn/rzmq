(* Proofs about Model/Trie.v: the trie refines the multiset of active subscriptions, `matches`
   is "some active topic is a prefix", and the three filter paths agree and keep order. *)
From RZ Require Import Base.Prelude Model.Trie.
Local Open Scope N_scope.

Lemma NoDup_app_intro {A} (a b : list A) :
  NoDup a -> NoDup b -> (forall x, In x a -> ~ In x b) -> NoDup (a ++ b).
Proof.
  induction a as [|x a IH]; intros Ha Hb Hd; [exact Hb|].
  inversion Ha as [|? ? Hx Ha']. subst. cbn. constructor.
  - intros H. apply in_app_or in H. destruct H as [H|H]; [exact (Hx H)|].
    exact (Hd x (or_introl eq_refl) H).
  - apply IH; [exact Ha' | exact Hb|]. intros y Hy. apply Hd. right. exact Hy.
Qed.

Lemma flat_map_if {A} (p : A -> bool) g (l : list A) :
  (forall x, g x = if p x then [x] else []) -> flat_map g l = filter p l.
Proof.
  intros Hg. induction l as [|x r IH]; cbn [flat_map filter]; [reflexivity|].
  rewrite Hg, IH. destruct (p x); reflexivity.
Qed.

Lemma bytes_eqb_spec a b : reflect (a = b) (bytes_eqb a b).
Proof.
  revert b. induction a as [|x a IH]; intros [|y b]; cbn [bytes_eqb]; try (constructor; congruence).
  destruct (N.eqb_spec x y) as [->|]; cbn [andb]; [|constructor; congruence].
  destruct (IH b) as [->|]; constructor; congruence.
Qed.

Lemma bytes_eqb_refl a : bytes_eqb a a = true.
Proof. destruct (bytes_eqb_spec a a); [reflexivity | contradiction]. Qed.

Lemma bytes_eqb_sym a b : bytes_eqb a b = bytes_eqb b a.
Proof. destruct (bytes_eqb_spec a b), (bytes_eqb_spec b a); congruence. Qed.

Lemma prefixb_prefix s m : prefixb s m = true <-> prefix s m.
Proof.
  revert m. induction s as [|x s IH]; intros m; cbn [prefixb].
  - split; [intros _; exists m; reflexivity | reflexivity].
  - destruct m as [|y m]; [split; [discriminate | intros [d H]; discriminate]|].
    destruct (N.eqb_spec x y) as [Hxy|Hxy]; cbn [andb]; split.
    + intros [d ->]%IH. subst y. exists d. reflexivity.
    + intros [d [= _ ->]]. apply IH. exists d. reflexivity.
    + discriminate.
    + intros [d [= H _]]. symmetry in H. contradiction.
Qed.

Lemma lookup_ins b b' f ch :
  lookup b' (ins b f ch) =
  if b =? b' then Some (f (match lookup b ch with Some c => c | None => empty end)) else lookup b' ch.
Proof.
  induction ch as [|[k c] r IH]; cbn [ins lookup]; [reflexivity|].
  destruct (N.eqb_spec k b) as [->|Hk]; cbn [lookup]; [destruct (b =? b'); reflexivity|].
  rewrite IH. destruct (N.eqb_spec b b') as [<-|]; [|reflexivity].
  rewrite (proj2 (N.eqb_neq k b) Hk). reflexivity.
Qed.

Lemma lookup_put b b' c' ch :
  lookup b' (put b c' ch) =
  if b =? b' then match lookup b ch with Some _ => Some c' | None => None end else lookup b' ch.
Proof.
  induction ch as [|[k c] r IH]; cbn [put lookup]; [destruct (b =? b'); reflexivity|].
  destruct (N.eqb_spec k b) as [->|Hk]; cbn [lookup]; [destruct (b =? b'); reflexivity|].
  rewrite IH. destruct (N.eqb_spec b b') as [<-|]; [|reflexivity].
  rewrite (proj2 (N.eqb_neq k b) Hk). reflexivity.
Qed.

Lemma put_same b c ch : lookup b ch = Some c -> put b c ch = ch.
Proof.
  induction ch as [|[k c0] r IH]; cbn [put lookup]; [reflexivity|].
  destruct (k =? b) eqn:E.
  - intros H. injection H as ->. reflexivity.
  - intros H. rewrite (IH H). reflexivity.
Qed.

Lemma lookup_some_in b c ch : lookup b ch = Some c -> In (b, c) ch.
Proof.
  induction ch as [|[k c0] r IH]; cbn [lookup]; [discriminate|].
  destruct (N.eqb_spec k b) as [->|]; [intros [= ->]; left; reflexivity | intros H; right; apply IH, H].
Qed.

Lemma lookup_none_notin b ch : lookup b ch = None -> ~ In b (map fst ch).
Proof.
  induction ch as [|[k c0] r IH]; cbn [lookup map fst In]; [tauto|].
  destruct (k =? b) eqn:E; [discriminate|].
  intros H [H1|H1]; [apply N.eqb_neq in E; contradiction | exact (IH H H1)].
Qed.

Lemma in_lookup b c ch : NoDup (map fst ch) -> In (b, c) ch -> lookup b ch = Some c.
Proof.
  induction ch as [|[k c0] r IH]; cbn [lookup map fst In]; [tauto|].
  intros Hnd [H|H].
  - injection H as -> ->. rewrite N.eqb_refl. reflexivity.
  - inversion Hnd as [|? ? Hk Hr]. subst. destruct (N.eqb_spec k b) as [->|]; [|apply IH; assumption].
    destruct Hk. apply (in_map fst _ _ H).
Qed.

Lemma count_of_empty s : count_of empty s = 0.
Proof. destruct s; reflexivity. Qed.

Lemma wrap_restore : wrap_add1 (wrap_sub1 0) = 0.
Proof. reflexivity. Qed.

Lemma wrap_add1_small c : c + 1 < U64 -> wrap_add1 c = c + 1.
Proof.
  unfold wrap_add1. destruct (N.eqb_spec c (U64 - 1)) as [->|]; [|reflexivity].
  intros H. destruct (N.lt_irrefl _ H).
Qed.

Lemma count_of_subscribe t s s' :
  count_of (subscribe t s) s' = if bytes_eqb s s' then wrap_add1 (count_of t s') else count_of t s'.
Proof.
  revert t s'. induction s as [|b rest IH]; intros [c ch] [|b' r'];
    cbn [subscribe count_of bytes_eqb t_count t_children]; try reflexivity.
  rewrite lookup_ins. destruct (N.eqb_spec b b') as [<-|]; cbn [andb]; [|reflexivity].
  rewrite IH. destruct (lookup b ch); [reflexivity|]. rewrite count_of_empty. reflexivity.
Qed.

Lemma subscribe_abs t s s' :
  count_of t s + 1 < U64 ->
  count_of (subscribe t s) s' = count_of t s' + (if bytes_eqb s s' then 1 else 0).
Proof.
  intros Hb. rewrite count_of_subscribe.
  destruct (bytes_eqb_spec s s') as [<-|]; [apply wrap_add1_small, Hb | symmetry; apply N.add_0_r].
Qed.

Lemma unsubscribe_result t s : snd (unsubscribe t s) = (count_of t s =? 1).
Proof.
  revert t. induction s as [|b rest IH]; intros [c ch]; cbn [unsubscribe count_of t_count t_children].
  - destruct (0 <? c) eqn:E; cbn [snd]; [reflexivity|]. lia.
  - destruct (lookup b ch) as [c0|]; [|reflexivity].
    specialize (IH c0). destruct (unsubscribe c0 rest) as [c' r]. exact IH.
Qed.

Lemma count_of_unsubscribe t s s' :
  count_of (fst (unsubscribe t s)) s' = if bytes_eqb s s' then count_of t s' - 1 else count_of t s'.
Proof.
  revert t s'. induction s as [|b rest IH]; intros [c ch] [|b' r'];
    cbn [unsubscribe bytes_eqb t_count t_children].
  - destruct (N.ltb_spec 0 c) as [Hc|Hc]; cbn [fst count_of t_count].
    + unfold wrap_sub1. destruct (N.eqb_spec c 0) as [->|]; [destruct (N.lt_irrefl _ Hc) | reflexivity].
    + apply N.le_0_r in Hc as ->. exact wrap_restore.
  - destruct (0 <? c); reflexivity.
  - destruct (lookup b ch); [destruct (unsubscribe _ rest)|]; reflexivity.
  - destruct (lookup b ch) as [c0|] eqn:L; cbn [fst count_of t_children].
    + specialize (IH c0 r'). destruct (unsubscribe c0 rest) as [c' r].
      cbn [fst count_of t_children]. rewrite lookup_put, L.
      destruct (N.eqb_spec b b') as [<-|]; cbn [andb]; [|reflexivity]. rewrite L. exact IH.
    + destruct (N.eqb_spec b b') as [<-|]; cbn [andb]; [|reflexivity].
      rewrite L. destruct (bytes_eqb rest r'); reflexivity.
Qed.

Lemma unsubscribe_abs t s s' :
  count_of (fst (unsubscribe t s)) s' = count_of t s' - (if bytes_eqb s s' then 1 else 0)
  /\ snd (unsubscribe t s) = (count_of t s =? 1).
Proof.
  split; [|apply unsubscribe_result].
  rewrite count_of_unsubscribe. destruct (bytes_eqb s s'); [reflexivity | symmetry; apply N.sub_0_r].
Qed.

Lemma unsubscribe_absent t s : count_of t s = 0 -> unsubscribe t s = (t, false).
Proof.
  revert t. induction s as [|b rest IH]; intros [c ch]; cbn [unsubscribe count_of t_count t_children].
  - intros ->. reflexivity.
  - destruct (lookup b ch) as [c0|] eqn:L; [|reflexivity].
    intros H. rewrite (IH c0 H). rewrite (put_same _ _ _ L). reflexivity.
Qed.

Lemma walk_spec t m :
  walk t m = true <-> exists s, 0 < count_of t s /\ prefix s m.
Proof.
  revert t. induction m as [|b rest IH]; intros [c ch]; cbn [walk t_count t_children].
  - split.
    + intros H%N.ltb_lt. exists []. split; [exact H | apply prefix_refl].
    + intros ([|? ?] & Hc & d & Hd); [apply N.ltb_lt, Hc | discriminate].
  - destruct (N.ltb_spec 0 c) as [Hc|Hc].
    + split; [intros _ | reflexivity]. exists []. split; [exact Hc | exists (b :: rest); reflexivity].
    + split.
      * destruct (lookup b ch) as [c0|] eqn:L; [|discriminate].
        intros (s & Hs & d & ->)%IH. exists (b :: s).
        split; [cbn [count_of t_children]; rewrite L; exact Hs | exists d; reflexivity].
      * intros ([|b' s] & Hs & d & Hd); [cbn in Hs; lia|].
        injection Hd as <- ->. cbn [count_of t_children] in Hs.
        destruct (lookup b ch) as [c0|]; [|lia].
        apply IH. exists s. split; [exact Hs | apply prefix_app].
Qed.

Lemma matches_walk t m : matches t m = walk t m.
Proof.
  unfold matches. destruct (0 <? t_count t) eqn:E; [|reflexivity].
  destruct m; cbn [walk]; rewrite E; reflexivity.
Qed.

Lemma matches_spec t m :
  matches t m = true <-> exists s, 0 < count_of t s /\ prefix s m.
Proof. rewrite matches_walk. apply walk_spec. Qed.

Lemma step_unsub t s : step t (Unsub s) = (fst (unsubscribe t s), RBool (snd (unsubscribe t s))).
Proof. cbn [step]. destruct (unsubscribe t s). reflexivity. Qed.

Lemma run_cons t o ops :
  run t (o :: ops) = (fst (run (fst (step t o)) ops), snd (step t o) :: snd (run (fst (step t o)) ops)).
Proof. cbn [run]. destruct (step t o) as [t1 r]. cbn [fst snd]. destruct (run t1 ops). reflexivity. Qed.

Lemma spec_run_cons l o ops :
  spec_run l (o :: ops) =
  (fst (spec_run (fst (spec_step l o)) ops), snd (spec_step l o) :: snd (spec_run (fst (spec_step l o)) ops)).
Proof. cbn [spec_run]. destruct (spec_step l o) as [l1 r]. cbn [fst snd]. destruct (spec_run l1 ops). reflexivity. Qed.

Lemma step_count_of t o s :
  count_of t s + 1 < U64 -> count_of (fst (step t o)) s = bal s (count_of t s) o.
Proof.
  intros Hb. destruct o as [s'|s'|m|]; rewrite ?step_unsub; cbn [step fst bal]; try reflexivity.
  - rewrite count_of_subscribe. destruct (bytes_eqb s' s); [apply wrap_add1_small, Hb | reflexivity].
  - apply count_of_unsubscribe.
Qed.

Lemma bal_le s c o : bal s c o <= c + 1.
Proof. destruct o; cbn [bal]; try lia; destruct (bytes_eqb _ _); lia. Qed.

Lemma count_of_run ops : forall t s,
  count_of t s + N.of_nat (length ops) < U64 ->
  count_of (fst (run t ops)) s = fold_left (bal s) ops (count_of t s).
Proof.
  induction ops as [|o ops IH]; intros t s Hb; [reflexivity|].
  rewrite run_cons. cbn [fst fold_left length] in *.
  rewrite <- step_count_of by lia. apply IH.
  rewrite step_count_of by lia. pose proof (bal_le s (count_of t s) o). lia.
Qed.

Lemma fold_bal_subs s n c : fold_left (bal s) (repeat (Sub s) n) c = c + N.of_nat n.
Proof.
  revert c. induction n as [|n IH]; intros c; cbn [repeat fold_left bal]; [lia|].
  rewrite bytes_eqb_refl, IH. lia.
Qed.
Lemma fold_bal_unsubs s n c : fold_left (bal s) (repeat (Unsub s) n) c = c - N.of_nat n.
Proof.
  revert c. induction n as [|n IH]; intros c; cbn [repeat fold_left bal]; [lia|].
  rewrite bytes_eqb_refl, IH. lia.
Qed.

Lemma n_subs_need_n_unsubs t s n k :
  count_of t s + N.of_nat n + N.of_nat k < U64 ->
  let t' := fst (run t (repeat (Sub s) n ++ repeat (Unsub s) k)) in
  count_of t' s = count_of t s + N.of_nat n - N.of_nat k
  /\ ((k < n)%nat -> forall m, prefix s m -> matches t' m = true).
Proof.
  intros Hb t'.
  assert (count_of t' s = count_of t s + N.of_nat n - N.of_nat k) as E.
  { unfold t'. rewrite count_of_run.
    - rewrite fold_left_app, fold_bal_subs, fold_bal_unsubs. reflexivity.
    - rewrite app_length, !repeat_length. lia. }
  split; [exact E|]. intros Hk m Hp. apply matches_spec. exists s. split; [lia | exact Hp].
Qed.

Lemma occ_remove_one s s' l :
  occ s (remove_one s' l) = if bytes_eqb s' s then occ s l - 1 else occ s l.
Proof.
  induction l as [|x r IH]; cbn [remove_one occ]; [destruct (bytes_eqb s' s); reflexivity|].
  destruct (bytes_eqb_spec s' x) as [<-|Hx].
  - rewrite (bytes_eqb_sym s s'). destruct (bytes_eqb s' s); [lia | reflexivity].
  - cbn [occ]. rewrite IH. destruct (bytes_eqb_spec s' s) as [->|]; [|reflexivity].
    destruct (bytes_eqb_spec s x); [contradiction | reflexivity].
Qed.

Lemma occ_le_length s l : occ s l <= N.of_nat (length l).
Proof. induction l as [|x r IH]; cbn [occ length]; [lia|]. destruct (bytes_eqb s x); lia. Qed.

Lemma occ_pos_in s l : 0 < occ s l <-> In s l.
Proof.
  induction l as [|x r IH]; cbn [occ In]; [lia|].
  destruct (bytes_eqb_spec s x) as [->|Hx]; [split; [left; reflexivity | lia]|].
  split; [intros H; right; apply IH; lia | intros [H|H%IH]; [congruence | lia]].
Qed.

(* the reference side of step_count_of, with no bound *)
Lemma occ_spec_step l o s : occ s (fst (spec_step l o)) = bal s (occ s l) o.
Proof.
  destruct o as [s'|s'| |]; cbn [spec_step fst bal occ]; try reflexivity.
  - rewrite (bytes_eqb_sym s s'). destruct (bytes_eqb s' s); [apply N.add_comm | reflexivity].
  - apply occ_remove_one.
Qed.

Lemma length_spec_step l o : (length (fst (spec_step l o)) <= S (length l))%nat.
Proof.
  destruct o as [s|s| |]; cbn [spec_step fst length]; try lia.
  induction l as [|x r IH]; cbn [remove_one length]; [lia|]. destruct (bytes_eqb s x); cbn [length]; lia.
Qed.

Lemma spec_matches_spec l m : spec_matches l m = true <-> exists s, In s l /\ prefix s m.
Proof.
  unfold spec_matches.
  split; [intros (s & H1 & H2)%existsb_exists | intros (s & H1 & H2); apply existsb_exists];
    exists s; (split; [exact H1|]); apply prefixb_prefix, H2.
Qed.

(* abstraction relation: the trie's multiplicity function is that of the list *)
Definition refines (t : trie) (l : list bytes) : Prop := forall s, count_of t s = occ s l.

Lemma refines_active t l s : refines t l -> 0 < count_of t s <-> In s l.
Proof. intros R. rewrite (R s). apply occ_pos_in. Qed.

Lemma refines_matches t l m : refines t l -> matches t m = spec_matches l m.
Proof.
  intros R. apply eq_true_iff_eq. rewrite matches_spec, spec_matches_spec.
  split; intros (s & H1 & H2); exists s; (split; [apply (refines_active _ _ _ R), H1 | exact H2]).
Qed.

Lemma refines_empty : refines empty [].
Proof. intros s. apply count_of_empty. Qed.

(* both sides move by `bal`, so the relation is kept as long as no counter can wrap *)
Lemma refines_step t l o :
  refines t l -> N.of_nat (length l) + 1 < U64 -> refines (fst (step t o)) (fst (spec_step l o)).
Proof.
  intros R Hb s. rewrite occ_spec_step, <- (R s). apply step_count_of.
  rewrite (R s). pose proof (occ_le_length s l). lia.
Qed.

(* the keys of every children list are distinct (a HashMap); `ins` and `put` keep it so *)
Inductive wf : trie -> Prop :=
| wf_node c ch : NoDup (map fst ch) -> (forall p, In p ch -> wf (snd p)) -> wf (Node c ch).

Lemma wf_inv c ch : wf (Node c ch) <-> NoDup (map fst ch) /\ Forall (fun p => wf (snd p)) ch.
Proof.
  split.
  - intros H. inversion H. split; [|apply Forall_forall]; assumption.
  - intros [H1 H2]. constructor; [|apply Forall_forall]; assumption.
Qed.

Lemma wf_empty : wf empty.
Proof. constructor; [constructor | intros p []]. Qed.

Lemma keys_ins b f ch :
  map fst (ins b f ch) = map fst ch ++ match lookup b ch with Some _ => [] | None => [b] end.
Proof.
  induction ch as [|[k c] r IH]; cbn [ins lookup map fst app]; [reflexivity|].
  destruct (k =? b); cbn [map fst]; [rewrite app_nil_r | rewrite IH]; reflexivity.
Qed.

Lemma keys_put b c' ch : map fst (put b c' ch) = map fst ch.
Proof.
  induction ch as [|[k c] r IH]; cbn [put map fst]; [reflexivity|].
  destruct (k =? b); cbn [map fst]; [reflexivity | rewrite IH; reflexivity].
Qed.

Lemma Forall_ins (P : trie -> Prop) b f ch :
  P (f empty) -> (forall c, P c -> P (f c)) ->
  Forall (fun p => P (snd p)) ch -> Forall (fun p => P (snd p)) (ins b f ch).
Proof.
  intros He Hf. induction 1 as [|[k c] r Hc Hr IH]; cbn [ins]; [constructor; [exact He | constructor]|].
  destruct (k =? b); constructor; try assumption. apply Hf, Hc.
Qed.

Lemma Forall_put (P : trie -> Prop) b c' ch :
  P c' -> Forall (fun p => P (snd p)) ch -> Forall (fun p => P (snd p)) (put b c' ch).
Proof.
  intros Hc'. induction 1 as [|[k c] r Hc Hr IH]; cbn [put]; [constructor|].
  destruct (k =? b); constructor; assumption.
Qed.

Lemma wf_subscribe s : forall t, wf t -> wf (subscribe t s).
Proof.
  induction s as [|b rest IH]; intros [c ch] [Hnd Hch]%wf_inv; cbn [subscribe t_count t_children];
    apply wf_inv; [split; assumption|].
  split; [|apply Forall_ins; [apply IH, wf_empty | exact IH | exact Hch]].
  rewrite keys_ins. destruct (lookup b ch) eqn:L; [rewrite app_nil_r; exact Hnd|].
  apply NoDup_app_intro; [exact Hnd | constructor; [intros [] | constructor] |].
  intros x Hx [<-|[]]. exact (lookup_none_notin _ _ L Hx).
Qed.

Lemma wf_unsubscribe s : forall t, wf t -> wf (fst (unsubscribe t s)).
Proof.
  induction s as [|b rest IH]; intros [c ch] Hwf; cbn [unsubscribe t_count t_children].
  - apply wf_inv in Hwf. destruct (0 <? c); apply wf_inv, Hwf.
  - destruct (lookup b ch) as [c0|] eqn:L; [|exact Hwf].
    apply wf_inv in Hwf as [Hnd Hch].
    assert (wf (fst (unsubscribe c0 rest))) as Hc
      by apply IH, (proj1 (Forall_forall _ _) Hch _ (lookup_some_in _ _ _ L)).
    destruct (unsubscribe c0 rest) as [c' r]. apply wf_inv. rewrite keys_put.
    split; [exact Hnd | apply Forall_put; assumption].
Qed.

Lemma wf_step t o : wf t -> wf (fst (step t o)).
Proof.
  intros Hwf. destruct o; rewrite ?step_unsub; [apply wf_subscribe | apply wf_unsubscribe | |]; exact Hwf.
Qed.

Lemma collect_in t : wf t -> forall pre s,
  In s (collect t pre) <-> exists s', s = pre ++ s' /\ 0 < count_of t s'.
Proof.
  induction 1 as [c ch Hnd Hch IH]. intros pre s. cbn [collect]. split.
  - intros [H|(p & Hp & Hs)%in_flat_map]%in_app_or.
    + destruct (N.ltb_spec 0 c); [|destruct H]. destruct H as [<-|[]].
      exists []. split; [symmetry; apply app_nil_r | assumption].
    + apply (IH p Hp) in Hs as (s' & -> & Hc).
      exists (fst p :: s'). split; [rewrite <- app_assoc; reflexivity|].
      cbn [count_of t_children]. rewrite (in_lookup (fst p) (snd p) ch Hnd); [exact Hc|].
      destruct p; exact Hp.
  - intros ([|b s'] & -> & Hc); cbn [count_of t_count t_children] in Hc; apply in_or_app.
    + left. apply N.ltb_lt in Hc. rewrite Hc, app_nil_r. left. reflexivity.
    + right. destruct (lookup b ch) as [c0|] eqn:L; [|lia].
      apply lookup_some_in in L. apply in_flat_map. exists (b, c0). split; [exact L|].
      apply (IH _ L). exists s'. split; [rewrite <- app_assoc; reflexivity | exact Hc].
Qed.

Lemma NoDup_flat_map_keys {B} (g : N * trie -> list B) ch :
  NoDup (map fst ch) ->
  (forall p, In p ch -> NoDup (g p)) ->
  (forall p q s, In p ch -> In q ch -> In s (g p) -> In s (g q) -> fst p = fst q) ->
  NoDup (flat_map g ch).
Proof.
  induction ch as [|p r IH]; intros Hnd Hg Hk; cbn [flat_map]; [constructor|].
  inversion Hnd as [|? ? Hp Hr]. subst. apply NoDup_app_intro.
  - apply Hg. left. reflexivity.
  - apply IH; [exact Hr | intros; apply Hg; right; assumption|].
    intros p0 q s H1 H2. apply Hk; right; assumption.
  - intros s Hs H. apply in_flat_map in H. destruct H as [q [Hq Hsq]].
    apply Hp. rewrite (Hk p q s (or_introl eq_refl) (or_intror Hq) Hs Hsq).
    apply in_map, Hq.
Qed.

(* the topics below two children differ at position |pre|, and those below any child are longer
   than pre *)
Lemma collect_nodup t : wf t -> forall pre, NoDup (collect t pre).
Proof.
  induction 1 as [c ch Hnd Hch IH]. intros pre. cbn [collect]. apply NoDup_app_intro.
  - destruct (0 <? c); constructor; [intros [] | constructor].
  - apply NoDup_flat_map_keys; [exact Hnd | intros p Hp; apply IH, Hp|].
    intros p q s Hp Hq (s1 & -> & _)%collect_in (s2 & H2 & _)%collect_in; [|apply Hch, Hq | apply Hch, Hp].
    rewrite <- !app_assoc in H2. apply app_inv_head in H2. cbn in H2. congruence.
  - intros s Hs (p & Hp & (s' & -> & _)%collect_in)%in_flat_map; [|apply Hch, Hp].
    destruct (0 <? c); [|destruct Hs]. destruct Hs as [Hs|[]].
    apply (f_equal (@length N)) in Hs. rewrite !app_length in Hs. cbn in Hs. lia.
Qed.

Lemma get_all_topics_spec t : wf t ->
  NoDup (get_all_topics t) /\ forall s, In s (get_all_topics t) <-> 0 < count_of t s.
Proof.
  intros Hwf. split; [apply collect_nodup, Hwf|]. intros s. rewrite (collect_in t Hwf [] s). split.
  - intros (s' & -> & H). exact H.
  - intros H. exists s. split; [reflexivity | exact H].
Qed.

(* results agree; the topic list is compared as a set (HashMap iteration order is unspecified)
   and must be duplicate-free on the trie side *)
Definition ret_equiv (a b : ret) : Prop :=
  match a, b with
  | RNone, RNone => True
  | RBool x, RBool y => x = y
  | RTopics l1, RTopics l2 => NoDup l1 /\ forall s, In s l1 <-> In s l2
  | _, _ => False
  end.

Lemma ret_step t l o : refines t l -> wf t -> ret_equiv (snd (step t o)) (snd (spec_step l o)).
Proof.
  intros R Hwf. destruct o as [s|s|m|]; rewrite ?step_unsub; cbn [step spec_step snd ret_equiv].
  - exact I.
  - rewrite unsubscribe_result, (R s). reflexivity.
  - apply refines_matches, R.
  - destruct (get_all_topics_spec t Hwf) as [Hnd Hin]. split; [exact Hnd|].
    intros s. etransitivity; [apply Hin | apply refines_active, R].
Qed.

Lemma run_refines ops : forall t l,
  refines t l -> wf t -> N.of_nat (length l) + N.of_nat (length ops) < U64 ->
  refines (fst (run t ops)) (fst (spec_run l ops)) /\ wf (fst (run t ops))
  /\ Forall2 ret_equiv (snd (run t ops)) (snd (spec_run l ops)).
Proof.
  induction ops as [|o ops IH]; intros t l R Hwf Hb; [cbn; auto|].
  rewrite run_cons, spec_run_cons. cbn [fst snd length] in *.
  destruct (IH (fst (step t o)) (fst (spec_step l o))) as (R2 & W2 & E2).
  - apply refines_step; [exact R | lia].
  - apply wf_step, Hwf.
  - pose proof (length_spec_step l o). lia.
  - split; [exact R2 | split; [exact W2 | constructor; [apply ret_step; assumption | exact E2]]].
Qed.

Lemma run_refines_from_empty ops :
  N.of_nat (length ops) < U64 ->
  refines (fst (run empty ops)) (fst (spec_run [] ops))
  /\ Forall2 ret_equiv (snd (run empty ops)) (snd (spec_run [] ops)).
Proof.
  intros Hb. destruct (run_refines ops empty [] refines_empty wf_empty) as [H1 [_ H2]]; [cbn; lia|].
  split; assumption.
Qed.

Lemma passes_is_matches t m : passes t m = matches t (topic_of m).
Proof. reflexivity. Qed.

Lemma frames_app a b : frames (a ++ b) = (frames a + frames b)%nat.
Proof.
  unfold frames. induction a as [|x a IH]; cbn [fold_right app]; [reflexivity|].
  rewrite IH. apply Nat.add_assoc.
Qed.

(* the batched loop consumes a prefix of the deque and forwards its filter; it stops early only
   with the channel full and a passing item left at the front *)
Lemma batch_loop_spec t items : forall cap, exists consumed r,
  batch_loop t cap items = (filter (passes t) consumed, r, frames consumed)
  /\ items = consumed ++ r
  /\ (length (filter (passes t) consumed) <= cap)%nat
  /\ match r with
     | [] => True
     | it :: _ => length (filter (passes t) consumed) = cap /\ passes t it = true
     end.
Proof.
  induction items as [|it rest IH]; intros cap; cbn [batch_loop].
  - exists [], []. repeat split. apply Nat.le_0_l.
  - destruct (passes t it) eqn:P; [destruct cap as [|c]|].
    + exists [], (it :: rest). repeat split; [apply Nat.le_0_l | exact P].
    + destruct (IH c) as (cs & r & E & Er & Hl & Hr). rewrite E, Er. exists (it :: cs), r.
      cbn [filter]. rewrite P. repeat split; [apply le_n_S, Hl|].
      destruct r; [exact I|]. destruct Hr as [Hr He]. split; [cbn [length]; f_equal; exact Hr | exact He].
    + destruct (IH cap) as (cs & r & E & Er & Hl & Hr). rewrite E, Er. exists (it :: cs), r.
      cbn [filter]. rewrite P. repeat split; assumption.
Qed.

Lemma batch_loop_enough t items : forall cap,
  (length (filter (passes t) items) <= cap)%nat ->
  batch_loop t cap items = (filter (passes t) items, [], frames items).
Proof.
  induction items as [|it rest IH]; intros cap H; cbn [batch_loop filter frames fold_right]; [reflexivity|].
  fold (frames rest). cbn [filter] in H. destruct (passes t it) eqn:P.
  - destruct cap as [|c]; [inversion H|]. rewrite IH by apply le_S_n, H. reflexivity.
  - rewrite IH by exact H. reflexivity.
Qed.

Lemma try_send_batch_alive t cap items : try_send_batch t true cap items = batch_loop t cap items.
Proof.
  destruct items as [|it rest]; [reflexivity|]. unfold try_send_batch.
  destruct (length (filter (passes t) (it :: rest)) =? 0)%nat eqn:E; [|reflexivity].
  apply Nat.eqb_eq in E. rewrite batch_loop_enough by (rewrite E; apply Nat.le_0_l).
  apply length_zero_iff_nil in E. rewrite E. reflexivity.
Qed.

Lemma try_send_batch_dead t cap items : fst (fst (try_send_batch t false cap items)) = [].
Proof.
  destruct items as [|it rest]; [reflexivity|]. unfold try_send_batch.
  destruct (length (filter (passes t) (it :: rest)) =? 0)%nat; reflexivity.
Qed.

Lemma filter_paths_agree t cap items :
  (length (filter (passes t) items) <= cap)%nat ->
  try_send_batch t true cap items = (filter (passes t) items, [], frames items)
  /\ flat_map (fun m => forwarded1 (send_single t true m)) items = filter (passes t) items
  /\ flat_map (fun m => forwarded1 (try_send_sync t true true m)) items = filter (passes t) items.
Proof.
  intros H. rewrite try_send_batch_alive, batch_loop_enough by exact H.
  split; [reflexivity|].
  split; apply flat_map_if; intros m; [unfold send_single | unfold try_send_sync];
    destruct (passes t m); reflexivity.
Qed.
