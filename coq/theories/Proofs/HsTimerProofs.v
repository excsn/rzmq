From RZ Require Import Base.Prelude Base.Stepper Model.Codec Model.Engine Model.HsTimer.
Local Open Scope N_scope.

(* with one deadline, whatever the peer's pacing, the handshake is decided (completed, failed or timed out)
   no later than D after it started; a timeout happens exactly at D *)
Theorem deadline_bounds_handshake D cfg : forall evs g now, now <= D ->
  decided_at (hs_loop false D cfg g now evs) <= D /\
  (forall t, hs_loop false D cfg g now evs = HsTimeout t -> t = D).
Proof.
  induction evs as [|[gap d] evs IH]; intros g now Hn; cbn [hs_loop].
  - cbn. split; [lia|]. intros t H; inversion H; reflexivity.
  - destruct (D <=? now + gap) eqn:E.
    + cbn. split; [lia|]. intros t H; inversion H; reflexivity.
    + destruct (e_net cfg g d (now + gap)) as [g' o].
      destruct (out_err o); [cbn; split; [lia|discriminate]|].
      destruct (e_phase (g_st g')); try (cbn; split; [lia|discriminate]); apply IH; lia.
Qed.

(* the per-read timer of the pinned commit: a peer that trickles one byte just inside each read timeout
   keeps the handshake (and the connection slot) alive far beyond the handshake interval.
   Witness (evaluated in Props/C07.v, C07_handshake_deadline_legacy_refuted): HANDSHAKE_IVL = 300, twelve single
   greeting bytes 200 apart: decided only at 2700. *)
Definition drip_cfg : ecfg :=
  {| c_server := true; c_stype := s_PULL; c_rid := None; c_sec_enabled := false; c_allow_v2 := true;
     c_use_plain := false; c_use_curve := false; c_use_noise := false; c_plain_user := None; c_plain_pass := None;
     c_opaque_ok := false; c_hb_ivl := None; c_hb_timeout := None; c_cork := false; c_zc := false; c_maxsz := (-1)%Z |}.
Definition drip_events : list (N * bytes) :=
  map (fun b => (200, [b])) (255 :: repeat 0 8 ++ [127; 3; 0]).
