(* Lemmas about Model/RouterGate.v: a step delivers at most one batch, of a finalized pipe and under the
   label in force for it; the invariant behind "never a placeholder for a peer that announced an identity";
   the invariant behind per-pipe FIFO for schedules without a finalization inside the check/pop window. *)
From RZ Require Import Base.Prelude Model.RouterMap Model.RouterGate Proofs.RouterMapProofs.
Local Open Scope N_scope.
Local Arguments aset : simpl never.
Local Arguments aremove : simpl never.
Local Arguments aget : simpl never.
Local Arguments eff_id : simpl never.

Section GateFacts.
  Variable B : Type.
  Variable placeholder : pipe -> ident.
  Notation gate := (gate B).
  Notation gstep := (gstep B placeholder).
  Notation grun_from := (grun_from B placeholder).
  Notation label := (label B placeholder).

  Lemma of_pipe_app {A} p (l1 l2 : list (pipe * A)) : of_pipe p (l1 ++ l2) = of_pipe p l1 ++ of_pipe p l2.
  Proof. unfold of_pipe. rewrite filter_app, map_app. reflexivity. Qed.
  Lemma of_pipe_drop_other {A} p q (l : list (pipe * A)) : p <> q -> of_pipe p (drop_pipe q l) = of_pipe p l.
  Proof.
    intros N. unfold of_pipe, drop_pipe. induction l as [|[r b] t IH]; simpl; [reflexivity|].
    destruct (N.eqb_spec r q); simpl.
    - subst r. replace (q =? p) with false by (symmetry; apply N.eqb_neq; congruence). exact IH.
    - destruct (r =? p); simpl; rewrite IH; reflexivity.
  Qed.
  Lemma of_pipe_cons {A} p q (b : A) l : of_pipe p ((q, b) :: l) = (if q =? p then [b] else []) ++ of_pipe p l.
  Proof. unfold of_pipe. simpl. destruct (q =? p); reflexivity. Qed.
  Lemma of_pipe_single {A} p q (b : A) : of_pipe p [(q, b)] = if q =? p then [b] else [].
  Proof. rewrite of_pipe_cons. apply app_nil_r. Qed.
  (* the element taken is the first of its pipe; every other pipe's sub-list is untouched *)
  Lemma take_first_some {A} q (l l' : list (pipe * A)) b :
    take_first q l = (Some b, l') -> forall p, of_pipe p l = (if q =? p then [b] else []) ++ of_pipe p l'.
  Proof.
    revert l'. induction l as [|[r c] t IH]; intros l'; simpl; [discriminate|].
    destruct (N.eqb_spec r q) as [->|N].
    - intros [= <- <-] p. apply of_pipe_cons.
    - destruct (take_first q t) as [r' t'] eqn:E. intros [= -> <-] p. rewrite !of_pipe_cons, (IH t' eq_refl p).
      destruct (N.eqb_spec r p), (N.eqb_spec q p); try reflexivity. congruence.
  Qed.
  Lemma take_first_none {A} p (l l' : list (pipe * A)) : take_first p l = (None, l') -> of_pipe p l = [].
  Proof.
    revert l'. induction l as [|[r c] t IH]; intros l'; simpl; [reflexivity|].
    destruct (N.eqb_spec r p); [discriminate|]. destruct (take_first p t) as [r' t'] eqn:E. intros [= -> <-].
    unfold of_pipe in *. simpl. replace (r =? p) with false by (symmetry; apply N.eqb_neq; assumption). exact (IH t' eq_refl).
  Qed.
  Lemma of_pipe_nil_notin {A} p (l : list (pipe * A)) : of_pipe p l = [] -> ~ In p (map fst l).
  Proof.
    unfold of_pipe. induction l as [|[r c] t IH]; simpl; [tauto|].
    destruct (N.eqb_spec r p); simpl; [discriminate|]. intros H [C|C]; [contradiction|exact (IH H C)].
  Qed.
  Lemma notin_of_pipe_nil {A} p (l : list (pipe * A)) : ~ In p (map fst l) -> of_pipe p l = [].
  Proof.
    induction l as [|[r c] t IH]; simpl; [reflexivity|]. intros H. rewrite of_pipe_cons, IH by tauto.
    destruct (N.eqb_spec r p); [tauto|reflexivity].
  Qed.

  Lemma gstep_out g e :
    g_out (gstep g e) = g_out g \/
    exists p b, g_out (gstep g e) = g_out g ++ [(p, label p g, b)] /\ is_final B p g = true.
  Proof.
    destruct e as [p ido inproc|p ido known|p|p b|first|p]; simpl; try (left; reflexivity).
    - destruct (releasable B g) as [|q rl] eqn:R; [left; reflexivity|].
      set (target := if existsb (N.eqb first) (q :: rl) then first else q).
      assert (In target (releasable B g)) as IT.
      { rewrite R. unfold target. destruct (existsb (N.eqb first) (q :: rl)) eqn:E; [|left; reflexivity].
        apply existsb_exists in E. destruct E as [x [I E]]. apply N.eqb_eq in E. subst. exact I. }
      destruct (take_first target (g_held g)) as [[b|] held'] eqn:T; [|left; reflexivity].
      right. exists target, b. split; [reflexivity|]. unfold releasable in IT. apply filter_In in IT. tauto.
    - destruct (g_window g); [|left; reflexivity].
      destruct (take_first p (g_queue g)) as [[b|] q'] eqn:T; [|left; reflexivity].
      destruct (is_final B p g) eqn:F; [|left; reflexivity]. right. exists p, b. auto.
  Qed.

  (* once p is finalized the shared map gives it id, and whatever was handed out for p carried id *)
  Definition labelled_with (p : pipe) (id : ident) (g : gate) : Prop :=
    (is_final B p g = true -> aget N.eqb p (g_shared g) = Some id) /\
    (forall lbl b, In (p, lbl, b) (g_out g) -> lbl = id).

  Lemma is_final_cons p q fin : existsb (N.eqb p) (q :: fin) = (p =? q) || existsb (N.eqb p) fin.
  Proof. reflexivity. Qed.
  Lemma is_final_filter p q fin :
    existsb (N.eqb p) (filter (fun r => negb (r =? q)) fin) = negb (p =? q) && existsb (N.eqb p) fin.
  Proof.
    induction fin as [|r t IH]; simpl; [rewrite andb_false_r; reflexivity|].
    destruct (N.eqb_spec r q); simpl.
    - subst r. rewrite IH. destruct (N.eqb_spec p q); simpl; reflexivity.
    - rewrite IH. destruct (N.eqb_spec p r); simpl; [|reflexivity]. subst r.
      replace (p =? q) with false by (symmetry; apply N.eqb_neq; assumption). reflexivity.
  Qed.

  (* what a step does to the finalized set and to the shared identity of a pipe *)
  Lemma gstep_final p g e :
    is_final B p (gstep g e) =
    match e with
    | GAttach q ido inproc =>
        (p =? q) && (match ido with Some (_ :: _) => true | _ => false end || inproc) || is_final B p g
    | GAnnounce q _ _ => (p =? q) || is_final B p g
    | GDetach q => negb (p =? q) && is_final B p g
    | _ => is_final B p g
    end.
  Proof.
    destruct e as [q ido inproc|q ido known|q|q b|first|q]; unfold is_final; simpl; try reflexivity.
    - destruct (_ || inproc); [rewrite andb_true_r|rewrite andb_false_r]; reflexivity.
    - apply is_final_filter.
    - destruct (releasable B g); [reflexivity|]. destruct (take_first _ (g_held g)) as [[b|] h]; reflexivity.
    - destruct (g_window g); [|reflexivity]. destruct (take_first q (g_queue g)) as [[b|] h]; [|reflexivity].
      destruct (is_final B q g); reflexivity.
  Qed.
  Lemma gstep_shared p g e :
    aget N.eqb p (g_shared (gstep g e)) =
    match e with
    | GAttach q ido _ => if p =? q then Some (eff_id placeholder q ido) else aget N.eqb p (g_shared g)
    | GAnnounce q ido known =>
        if known && (p =? q) then Some (eff_id placeholder q ido) else aget N.eqb p (g_shared g)
    | GDetach q => if p =? q then None else aget N.eqb p (g_shared g)
    | _ => aget N.eqb p (g_shared g)
    end.
  Proof.
    destruct e as [q ido inproc|q ido known|q|q b|first|q]; simpl; try reflexivity.
    - apply pget_set.
    - destruct known; [apply pget_set|reflexivity].
    - apply pget_rm.
    - destruct (releasable B g); [reflexivity|]. destruct (take_first _ (g_held g)) as [[b|] h]; reflexivity.
    - destruct (g_window g); [|reflexivity]. destruct (take_first q (g_queue g)) as [[b|] h]; [|reflexivity].
      destruct (is_final B q g); reflexivity.
  Qed.

  (* Only an attach or announcement of p itself writes p's shared entry or finalizes p: it carries id, or it is
     the pre-handshake attach, which does not finalize.  A delivery uses the label of a finalized pipe. *)
  Lemma labelled_step p id g e :
    labelled_with p id g ->
    handshaking_pipe B placeholder p id g [e] = true ->
    labelled_with p id (gstep g e).
  Proof.
    intros [L1 L2] W. simpl in W. rewrite andb_true_r in W.
    split.
    - rewrite gstep_final, gstep_shared. destruct e as [q ido inproc|q ido known|q|q b|first|q]; try exact L1.
      + destruct (N.eqb_spec p q) as [<-|_]; [|exact L1]. rewrite N.eqb_refl in W. cbn [negb orb andb] in W.
        apply orb_true_iff in W. destruct W as [W|W]; [apply ident_eqb_eq in W; congruence|].
        destruct (is_final B p g); [discriminate W|]. destruct inproc; [discriminate W|].
        destruct ido as [[|x r]|]; discriminate.
      + destruct (N.eqb_spec p q) as [<-|_]; [|rewrite andb_false_r; exact L1].
        rewrite N.eqb_refl in W. cbn [negb orb] in W. apply andb_true_iff in W. destruct W as [-> W].
        apply ident_eqb_eq in W. intros _. simpl. congruence.
      + destruct (p =? q); [discriminate|exact L1].
    - destruct (gstep_out g e) as [E|(q & b & E & F)].
      + rewrite E. exact L2.
      + intros lbl c I. rewrite E in I. apply in_app_or in I. destruct I as [I|[I|[]]]; [exact (L2 _ _ I)|].
        inversion I; subst. unfold label. rewrite (L1 F). reflexivity.
  Qed.

  Lemma handshaking_cons p id g e t :
    handshaking_pipe B placeholder p id g (e :: t) =
    handshaking_pipe B placeholder p id g [e] && handshaking_pipe B placeholder p id (gstep g e) t.
  Proof. simpl. rewrite andb_true_r. reflexivity. Qed.

  Lemma labelled_run p id g h :
    labelled_with p id g -> handshaking_pipe B placeholder p id g h = true -> labelled_with p id (grun_from g h).
  Proof.
    revert g. induction h as [|e t IH]; intros g L W; [exact L|].
    rewrite handshaking_cons in W. apply andb_true_iff in W. destruct W as [W1 W2].
    simpl. apply IH; [apply labelled_step; assumption|exact W2].
  Qed.
  Lemma labelled_gate0 p id : labelled_with p id (gate0 B).
  Proof. split; [unfold is_final; simpl; discriminate|intros ? ? []]. Qed.

  (* what arrived for p = delivered ++ held ++ queued; and inside the check/pop window nothing of a finalized
     pipe is held, so that a delivery straight from the queue overtakes nothing *)
  Definition fifo_inv (p : pipe) (arr : list B) (g : gate) : Prop :=
    arr = delivered B p g ++ of_pipe p (g_held g) ++ of_pipe p (g_queue g) /\
    (g_window g = true -> forall q, is_final B q g = true -> of_pipe q (g_held g) = []).

  Lemma delivered_app p g g' q lbl b :
    g_out g' = g_out g ++ [(q, lbl, b)] ->
    delivered B p g' = delivered B p g ++ (if q =? p then [b] else []).
  Proof. intros E. unfold delivered. rewrite E, filter_app, map_app. simpl. destruct (q =? p); reflexivity. Qed.
  Lemma delivered_same p g g' : g_out g' = g_out g -> delivered B p g' = delivered B p g.
  Proof. intros E. unfold delivered. rewrite E. reflexivity. Qed.

  Lemma releasable_nil g : releasable B g = [] -> forall q, is_final B q g = true -> of_pipe q (g_held g) = [].
  Proof.
    intros R q F. apply notin_of_pipe_nil. intros I.
    assert (In q (releasable B g)) as I2 by (apply filter_In; auto). rewrite R in I2. destruct I2.
  Qed.

  (* Each step moves at most one batch, and always from the head of one stage of its pipe to the tail
     of a later one; only a delivery straight from the queue skips a stage. *)
  Lemma fifo_step p arr g e :
    fifo_inv p arr g ->
    (match e with GDetach q => q <> p | _ => True end) ->
    (match e with GAttach _ _ _ | GAnnounce _ _ _ => g_window g = false | _ => True end) ->
    fifo_inv p (arr ++ arrivals B p [e]) (gstep g e).
  Proof.
    intros [I1 I2] ND NW.
    destruct e as [q ido inproc|q ido known|q|q b|first|q]; simpl arrivals; try rewrite app_nil_r.
    - split; [exact I1|]. simpl. rewrite NW. discriminate.
    - split; [exact I1|]. simpl. rewrite NW. discriminate.
    - split.
      + simpl. unfold delivered. simpl. rewrite !of_pipe_drop_other by congruence. exact I1.
      + intros W r F. rewrite gstep_final in F. apply andb_true_iff in F. destruct F as [F1 F2].
        apply negb_true_iff, N.eqb_neq in F1. simpl. rewrite of_pipe_drop_other by assumption. exact (I2 W r F2).
    - split; [|exact I2].
      simpl. unfold delivered. simpl. rewrite of_pipe_app, of_pipe_single, I1, <- !app_assoc. reflexivity.
    - simpl. destruct (releasable B g) as [|r rl] eqn:R.
      + split; [exact I1|]. intros _. apply releasable_nil. exact R.
      + set (target := if existsb (N.eqb first) (r :: rl) then first else r).
        destruct (take_first target (g_held g)) as [[b|] held'] eqn:T; [|split; [exact I1|discriminate]].
        split; [|discriminate]. erewrite delivered_app by reflexivity. cbn [g_held g_queue].
        rewrite I1, (take_first_some _ _ _ _ T p), <- !app_assoc. reflexivity.
    - simpl. destruct (g_window g) eqn:W; [|split; [exact I1|rewrite W; discriminate]].
      destruct (take_first q (g_queue g)) as [[b|] queue'] eqn:T; [|split; [exact I1|intros _; exact (I2 eq_refl)]].
      destruct (is_final B q g) eqn:F; (split; [|discriminate]).
      + erewrite delivered_app by reflexivity. cbn [g_held g_queue].
        rewrite I1, (take_first_some _ _ _ _ T p), <- !app_assoc.
        destruct (N.eqb_spec q p) as [->|_]; [rewrite (I2 eq_refl p F)|]; reflexivity.
      + unfold delivered. cbn [g_out g_held g_queue].
        rewrite I1, (take_first_some _ _ _ _ T p), of_pipe_app, of_pipe_single, <- !app_assoc. reflexivity.
  Qed.

  Lemma arrivals_cons p e t : arrivals B p (e :: t) = arrivals B p [e] ++ arrivals B p t.
  Proof. unfold arrivals. simpl. rewrite app_nil_r. reflexivity. Qed.

  Lemma fifo_run p arr g h :
    fifo_inv p arr g -> detach_free B p h = true -> no_final_in_window B placeholder g h = true ->
    fifo_inv p (arr ++ arrivals B p h) (grun_from g h).
  Proof.
    revert arr g. induction h as [|e t IH]; intros arr g I D W.
    - simpl. rewrite app_nil_r. exact I.
    - simpl in D, W. apply andb_true_iff in D, W. destruct D as [D1 D2], W as [W1 W2].
      rewrite arrivals_cons, app_assoc. simpl grun_from. apply IH; [|exact D2|exact W2].
      apply fifo_step; [exact I| |].
      + destruct e; auto. apply negb_true_iff in D1. apply N.eqb_neq in D1. exact D1.
      + destruct e; auto; apply negb_true_iff in W1; exact W1.
  Qed.
End GateFacts.
