(* Sending side: every `send_multipart` path, with the FrameBatch limits, answers what the list-level envelope
   function of Model/Envelope.v says, and panics exactly when those frames do not fit one FrameBatch
   (send_exact); the frames handed to the connection form exactly one message on the wire. *)
From RZ Require Import Base.Prelude Model.Codec Model.RouterMap Model.Envelope Model.FrameBatch Model.SendFlags
  Model.Balancer Proofs.FrameBatchProofs Proofs.EnvelopeProofs.
Local Open Scope N_scope.

Lemma norm_flags_length l : length (norm_flags l) = length l.
Proof. induction l as [|f [|g t] IH]; [reflexivity | reflexivity |]. cbn [norm_flags length] in *. rewrite IH. reflexivity. Qed.
Lemma clear_last_length l : length (clear_last l) = length l.
Proof. induction l as [|f [|g t] IH]; [reflexivity | reflexivity |]. cbn [clear_last length] in *. rewrite IH. reflexivity. Qed.

Lemma fb_norm_list (b : batch) : fb_list (fb_norm b) = norm_flags (fb_list b).
Proof. unfold fb_norm. apply fb_set_list. apply norm_flags_length. Qed.
Lemma fb_clear_last_list (b : batch) : fb_list (fb_clear_last b) = clear_last (fb_list b).
Proof. unfold fb_clear_last. apply fb_set_list. apply clear_last_length. Qed.
Lemma fb_more_first_list (b : batch) :
  fb_list (fb_more_first b) = match fb_list b with [] => [] | f :: t => with_more f :: t end.
Proof. unfold fb_more_first. apply fb_set_list. destruct (fb_list b); reflexivity. Qed.

(* canonical batches: "is_empty()" means "holds no frame" *)
Lemma canon_empty (b : batch) : fb_canon b -> fb_is_empty b = true -> fb_list b = [].
Proof. intros _. apply fb_is_empty_list. Qed.
Lemma canon_nonempty (b : batch) : fb_canon b -> fb_is_empty b = false -> fb_list b <> [].
Proof. unfold fb_canon. intros C E L. rewrite L, E in C. discriminate. Qed.
Lemma canon_is_empty (b : batch) : fb_canon b -> fb_is_empty b = negb (nonnil (fb_list b)).
Proof. unfold fb_canon. intros ->. destruct (fb_list b); reflexivity. Qed.
Lemma nonempty_not_is_empty (b : batch) : fb_list b <> [] -> fb_is_empty b = false.
Proof. destruct b; cbn; congruence. Qed.
Lemma from_vec_canon (v : list frame) b : fb_from_vec v = Ok b -> fb_canon b /\ fb_list b = v.
Proof.
  intros H. pose proof (fb_from_vec_builds v) as S. rewrite H in S. destruct S as [L _].
  split; [|exact L]. unfold fb_canon. rewrite L. exact (fb_from_vec_is_empty v b H).
Qed.
Lemma demote_canon (v : list frame) : fb_canon (demote v).
Proof. destruct v as [|a [|c [|d t]]]; reflexivity. Qed.
Lemma remove_canon i (b : batch) x b' : fb_remove i b = Ok (x, b') -> fb_canon b'.
Proof.
  destruct b as [|a|a c|v]; cbn [fb_remove].
  - discriminate.
  - destruct i; [intros [= <- <-]; reflexivity | discriminate].
  - destruct i as [|[|i]]; [intros [= <- <-]; reflexivity | intros [= <- <-]; reflexivity | discriminate].
  - unfold vec_remove. destruct (nth_error v i); [|discriminate]. cbn [bind]. intros [= <- <-]. apply demote_canon.
Qed.

Lemma latch_encode_length router manual l : l <> [] ->
  length (latch_encode router manual l) = (length l + if manual then 0 else 1)%nat.
Proof. destruct l; [congruence|]. intros _. destruct manual, router; cbn; lia. Qed.
Lemma strat_prepare_length s manual idm l :
  length (strat_prepare s manual idm l) =
  (length l + match s with
              | SReq => 1 | SRouter => 0
              | SDealer => if manual then 0 else 2
              | SDefault => if manual then 1 else 2
              end)%nat.
Proof. destruct s, manual, l; cbn; lia. Qed.
Lemma dealer_prepare_length manual l :
  length (dealer_prepare manual l) =
  match l with [] => if manual then 0%nat else 2%nat | _ => (length l + if manual then 0 else 1)%nat end.
Proof. unfold dealer_prepare. destruct manual, l; rewrite ?norm_flags_length; cbn; lia. Qed.
Lemma rep_send_multipart_length prefix v :
  length (rep_send_multipart prefix v) = (length prefix + Nat.max 1 (length v))%nat.
Proof. unfold rep_send_multipart. rewrite norm_flags_length, app_length. destruct v; cbn [length]; lia. Qed.

Lemma latch_encode_fb_builds router manual (b : batch) : fb_list b <> [] -> (length (fb_list b) <= VEC_MAX)%nat ->
  builds (latch_encode_fb router manual b) (latch_encode router manual (fb_list b)).
Proof.
  intros Hn W. pose proof (nonempty_not_is_empty b Hn) as E. unfold latch_encode_fb, latch_encode.
  destruct manual; [split; [reflexivity | exact W]|]. destruct router.
  - unfold router_auto_encode_fb. cbv zeta. rewrite E. cbv iota.
    replace (fb_is_empty (fb_more_first b)) with false
      by (unfold fb_more_first; rewrite fb_set_is_empty; symmetry; exact E).
    pose proof (fb_insert_builds 1 (delim (1 <? fb_len b)%nat) (fb_more_first b)) as Hb.
    rewrite fb_more_first_list in Hb. unfold fb_len in *.
    destruct (fb_list b) as [|f0 rest]; [congruence|]. cbn [firstn skipn app length] in *.
    replace (1 <? S (length rest))%nat with (nonnil rest) in * by (destruct rest; reflexivity).
    apply Hb; [exact W | lia].
  - unfold dealer_auto_encode_fb, dealer_auto_encode. rewrite E, (nonnil_true _ Hn).
    apply (fb_insert_builds 0 (delim true) b W). lia.
Qed.

(* prepare_full_multipart_send_sequence *)
Lemma dealer_prepare_fb_builds (manual : bool) (b : batch) : fb_canon b -> (length (fb_list b) <= VEC_MAX)%nat ->
  builds (dealer_prepare_fb manual b) (dealer_prepare manual (fb_list b)).
Proof.
  intros C W. pose proof vec_max_big. unfold dealer_prepare_fb, dealer_prepare. destruct manual.
  - split; [apply fb_norm_list | rewrite norm_flags_length; exact W].
  - rewrite (canon_is_empty b C). pose proof (latch_encode_fb_builds false false b) as S.
    destruct (fb_list b) as [|x t]; cbn [nonnil negb]; [split; [reflexivity | cbn; lia]|].
    specialize (S ltac:(discriminate) W). unfold builds in *. rewrite norm_flags_length.
    destruct (latch_encode_fb false false b) as [b1|]; cbn [bind]; [|exact S].
    destruct S as [L1 B1]. split; [rewrite fb_norm_list, L1; reflexivity | exact B1].
Qed.

(* patterns/router.rs strategies *)
Lemma strat_prepare_fb_builds s manual idm (payload : batch) : fb_canon payload ->
  (length (fb_list payload) <= VEC_MAX)%nat ->
  builds (strat_prepare_fb s manual idm payload) (strat_prepare s manual idm (fb_list payload)).
Proof.
  intros C W.
  assert (forall manual', builds (bind (fb_insert 0 (id_flagged idm payload) payload) (latch_encode_fb true manual'))
            (latch_encode true manual' ((if nonnil (fb_list payload) then with_more idm else idm) :: fb_list payload))) as Hins.
  { intros manual'. replace (if nonnil (fb_list payload) then with_more idm else idm) with (id_flagged idm payload)
      by (unfold id_flagged; rewrite (canon_is_empty payload C); destruct (nonnil (fb_list payload)); reflexivity).
    pose proof (fb_insert_builds 0 (id_flagged idm payload) payload W (Nat.le_0_l _)) as S1.
    cbn [firstn skipn app] in S1. destruct (fb_insert 0 (id_flagged idm payload) payload) as [p1|]; cbn [bind].
    - destruct S1 as [L1 B1]. rewrite <- L1 in *. apply latch_encode_fb_builds; [rewrite L1; discriminate | exact B1].
    - unfold builds in *. rewrite latch_encode_length by discriminate. lia. }
  destruct s; cbn [strat_prepare_fb strat_prepare].
  - apply Hins.
  - unfold fb_len. pose proof (@fb_with_capacity_case frame (1 + length (fb_list payload))) as S0.
    destruct (fb_with_capacity (1 + length (fb_list payload))) as [w0|]; cbn [bind]; [|exact S0].
    destruct S0 as [L0 B0].
    destruct (fb_push_ok w0 (delim (negb (fb_is_empty payload)))) as (w1 & -> & L1); [rewrite L0; cbn; lia|]. cbn [bind].
    rewrite L0, (canon_is_empty payload C), negb_involutive in L1. cbn [app] in L1.
    pose proof (fb_extend_builds (fb_list payload) w1) as S2. rewrite L1 in S2. apply S2. cbn; lia.
  - destruct manual; [split; [reflexivity | exact W] | apply Hins].
  - split; [reflexivity | exact W].
Qed.

(* what one send_multipart call answers when it does not panic, at list level *)
Definition res_of (k : sender) (v : list frame) : send_res :=
  match k with
  | SndPush | SndPub => match v with [] => SRNothing | _ => SRWire (norm_flags v) end
  | SndDealer manual => SRWire (dealer_prepare manual v)
  | SndRep prefix => SRWire (rep_send_multipart prefix v)
  | SndReq => SRErr
  | SndRouter mandatory manual peer =>
      match v with
      | [] => SRErr
      | idm :: payload =>
          match snd idm with
          | [] => SRErr
          | _ => match peer with
                 | None => if mandatory then SRErr else SRNothing
                 | Some s => SRWire (norm_flags (strat_prepare s manual idm payload))
                 end
          end
      end
  end.
Definition res_frames (r : send_res) : nat := match r with SRWire w => length w | _ => 0%nat end.
(* the largest FrameBatch the call builds: the one `Socket::send_multipart` makes of the caller's Vec, or the wire *)
Definition frames_needed (k : sender) (v : list frame) : nat := Nat.max (length v) (res_frames (res_of k v)).

(* `o` answers `r`, and panics instead exactly when the `n` frames it needs do not fit one FrameBatch *)
Definition answers (o : out send_res) (r : send_res) (n : nat) : Prop :=
  match o with
  | Ok r' => r' = r /\ (n <= VEC_MAX)%nat
  | Panic => (VEC_MAX < n)%nat
  end.

(* Socket::send_multipart(Vec<Msg>) = FrameBatch::from, then the socket's own send_multipart *)
Lemma answers_api inner v r :
  (forall b, fb_canon b -> fb_list b = v -> (length v <= VEC_MAX)%nat -> answers (inner b) r (res_frames r)) ->
  answers (api_send_multipart inner v) r (Nat.max (length v) (res_frames r)).
Proof.
  intros H. unfold api_send_multipart. pose proof (fb_from_vec_builds v) as S.
  destruct (fb_from_vec v) as [b|] eqn:E; cbn [bind]; unfold answers, builds in *; [|lia].
  destruct S as [Hl Lv]. specialize (H b (proj1 (from_vec_canon v b E)) Hl Lv).
  destruct (inner b); [destruct H as [H1 H2]; split; [exact H1 | lia] | lia].
Qed.

Lemma push_answers v (b : batch) : fb_canon b -> fb_list b = v -> (length v <= VEC_MAX)%nat ->
  answers (push_send_multipart b) (res_of SndPush v) (res_frames (res_of SndPush v)).
Proof.
  intros C Hl L. unfold push_send_multipart. rewrite (canon_is_empty b C), fb_norm_list, Hl.
  destruct v; (split; [reflexivity | cbn [res_of res_frames]; rewrite ?norm_flags_length; lia]).
Qed.

(* rep_socket.rs send_multipart: an empty payload becomes one empty frame; prefix and payload are copied into a
   batch of their joint capacity, which is where it panics *)
Lemma rep_answers prefix v (p b : batch) : fb_list p = prefix -> fb_canon b -> fb_list b = v -> (length v <= VEC_MAX)%nat ->
  answers (rep_send_multipart_fb p b) (res_of (SndRep prefix) v) (res_frames (res_of (SndRep prefix) v)).
Proof.
  intros Hp C Hl L. pose proof vec_max_big. cbn [res_of res_frames]. rewrite rep_send_multipart_length.
  unfold rep_send_multipart_fb, rep_send_multipart. set (u := match v with [] => [delim false] | _ => v end).
  assert (exists up, (if fb_is_empty b then fb_push b (delim false) else Ok b) = Ok up /\ fb_list up = u /\
                     length u = Nat.max 1 (length v)) as (up & -> & Hu & Lu).
  { rewrite (canon_is_empty b C), Hl. subst u. destruct v as [|x t]; cbn [nonnil negb].
    - destruct (fb_push_ok b (delim false)) as (up & -> & Lup); [rewrite Hl; cbn; lia|].
      exists up. rewrite Lup, Hl. auto.
    - exists b. cbn [length]. split; [reflexivity|]. split; [exact Hl | lia]. }
  cbn [bind]. unfold fb_len. rewrite Hp, Hu, <- Lu.
  pose proof (@fb_with_capacity_case frame (length prefix + length u)) as S0.
  destruct (fb_with_capacity (length prefix + length u)) as [w0|]; cbn [bind]; [|exact S0]. destruct S0 as [L0 B0].
  destruct (fb_extend_ok prefix w0) as (w1 & -> & L1); [rewrite L0; cbn; lia|]. cbn [bind].
  destruct (fb_extend_ok u w1) as (w2 & -> & L2); [rewrite L1, L0, app_length; cbn; lia|]. cbn [bind].
  rewrite L2, L1, L0. cbn [app]. rewrite app_length.
  destruct (Nat.eqb_spec (length prefix + length u) 0); [lia|].
  split; [rewrite fb_norm_list, L2, L1, L0; reflexivity | exact B0].
Qed.

Theorem send_exact k v : answers (send_multipart_of k v) (res_of k v) (frames_needed k v).
Proof.
  unfold frames_needed. destruct k as [| |manual|prefix| |mandatory manual peer]; cbn [send_multipart_of].
  1-2: apply answers_api, push_answers.
  - apply answers_api. intros b C Hl L. unfold dealer_send_multipart.
    pose proof (dealer_prepare_fb_builds manual b C) as S. rewrite Hl in S. specialize (S L).
    destruct (dealer_prepare_fb manual b) as [w|]; cbn [bind]; [|exact S].
    destruct S as [Lw Bw]. split; [rewrite Lw; reflexivity | exact Bw].
  - pose proof (fb_from_vec_builds prefix) as Sp. destruct (fb_from_vec prefix) as [p|]; cbn [bind].
    + apply answers_api. intros b. apply rep_answers, Sp.
    + unfold answers, builds in *. cbn [res_of res_frames]. rewrite rep_send_multipart_length. lia.
  - apply answers_api. intros b C Hl L. split; [reflexivity | cbn; lia].
  - apply answers_api. intros b C Hl L. unfold router_send_multipart_fb. rewrite (canon_is_empty b C), Hl.
    destruct v as [|idm payload]; cbn [nonnil negb res_of]; [split; [reflexivity | cbn; lia]|].
    destruct (fb_remove0 idm payload b Hl) as (b' & E & Hb'). rewrite E. cbn [bind].
    destruct (snd idm); [split; [reflexivity | cbn; lia]|].
    destruct peer as [s|]; [|destruct mandatory; (split; [reflexivity | cbn; lia])].
    pose proof (strat_prepare_fb_builds s manual idm b' (remove_canon _ _ _ _ E)) as S. rewrite Hb' in S.
    specialize (S ltac:(cbn [length] in L; lia)). cbn [res_frames]. rewrite norm_flags_length.
    destruct (strat_prepare_fb s manual idm b') as [w|]; cbn [bind]; [|exact S].
    destruct S as [Lw Bw]. split; [rewrite fb_norm_list, Lw; reflexivity | exact Bw].
Qed.

Lemma send_panics k v : (VEC_MAX < frames_needed k v)%nat -> send_multipart_of k v = Panic.
Proof.
  intros L. pose proof (send_exact k v) as S. destruct (send_multipart_of k v); [destruct S as [_ S]; lia | reflexivity].
Qed.
(* Socket::send_multipart(Vec<Msg>) panics in FrameBatch::from for every socket type beyond 255 frames *)
Lemma api_panics_beyond_255 k v : (VEC_MAX < length v)%nat -> send_multipart_of k v = Panic.
Proof. intros L. apply send_panics. unfold frames_needed. lia. Qed.
(* frames the call would put into one FrameBatch, envelope included *)
Definition wire_len_bound (k : sender) (v : list frame) : nat :=
  match k with
  | SndPush | SndPub | SndReq => length v
  | SndDealer manual => length v + (if manual then 0 else 1)
  | SndRep prefix => length prefix + Nat.max 1 (length v)
  | SndRouter _ _ _ => length v + 1
  end.
Lemma frames_needed_bound k v : (frames_needed k v <= Nat.max 2 (wire_len_bound k v))%nat.
Proof.
  unfold frames_needed. destruct k as [| |manual|prefix| |mandatory manual peer]; cbn [res_of wire_len_bound].
  1-2: destruct v; cbn [res_frames]; rewrite ?norm_flags_length; lia.
  - cbn [res_frames]. rewrite dealer_prepare_length. destruct v, manual; cbn [length]; lia.
  - cbn [res_frames]. rewrite rep_send_multipart_length. lia.
  - cbn [res_frames]. lia.
  - destruct v as [|idm payload]; [cbn; lia|]. destruct (snd idm); [cbn [res_frames]; lia|].
    destruct peer as [s|]; [|destruct mandatory; cbn [res_frames]; lia].
    cbn [res_frames]. rewrite norm_flags_length, strat_prepare_length. destruct s, manual; cbn [length]; lia.
Qed.
Theorem send_panics_refuted :
  exists k v, send_multipart_of k v = Panic /\ length v = 256%nat.
Proof.
  exists SndPush, (repeat (false, []) 256). split; [|apply repeat_length].
  apply api_panics_beyond_255. rewrite repeat_length. exact (Nat.lt_succ_diag_r VEC_MAX).
Qed.

(* the frames handed to the connection by one send_multipart call, at list level *)
Definition wire_of (k : sender) (v : list frame) : list frame :=
  match k with
  | SndPush | SndPub => norm_flags v
  | SndDealer manual => dealer_prepare manual v
  | SndRep prefix => rep_send_multipart prefix v
  | SndReq => []
  | SndRouter _ manual peer =>
      match v, peer with
      | idm :: payload, Some s => norm_flags (strat_prepare s manual idm payload)
      | _, _ => []
      end
  end.

Lemma send_wire k v w : send_multipart_of k v = Ok (SRWire w) -> res_of k v = SRWire w.
Proof. intros H. pose proof (send_exact k v) as S. rewrite H in S. symmetry. exact (proj1 S). Qed.

Theorem send_sound k v w : send_multipart_of k v = Ok (SRWire w) -> w = wire_of k v.
Proof.
  intros H. apply send_wire in H. destruct k as [| |manual|prefix| |mandatory manual peer]; cbn [res_of wire_of] in *.
  1-2: destruct v; [discriminate | injection H as <-; reflexivity].
  1-2: injection H as <-; reflexivity.
  - discriminate.
  - destruct v as [|idm payload]; [discriminate|]. destruct (snd idm); [discriminate|].
    destruct peer as [s|]; [injection H as <-; reflexivity | destruct mandatory; discriminate].
Qed.

(* bridge to the engine's view: a flag-correct frame list splits as init (all MORE) ++ [last (no MORE)] *)
Lemma more_ok_split (l : list frame) : l <> [] -> more_ok l ->
  exists init last, l = init ++ [last] /\ Forall (fun f => fmore f = true) init /\ fmore last = false.
Proof.
  induction l as [|f [|g t] IH]; intros Hn M; [congruence| |].
  - exists [], f. split; [reflexivity|]. split; [constructor | apply more_ok_single; exact M].
  - destruct (more_ok_tail f g t M) as [Hf Mt]. destruct (IH ltac:(discriminate) Mt) as (init & last & E & Hi & Hl).
    exists (f :: init), last. rewrite E. split; [reflexivity|]. split; [constructor; assumption | exact Hl].
Qed.
Lemma with_more_id (f : frame) : fmore f = true -> with_more f = f.
Proof. destruct f as [m d]. cbn. intros ->. reflexivity. Qed.
Lemma more_ok_cons (f g : frame) t : fmore f = true -> more_ok (g :: t) -> more_ok (f :: g :: t).
Proof.
  unfold more_ok. intros Hf M.
  change (norm_flags (f :: g :: t)) with (with_more f :: norm_flags (g :: t)). rewrite M, with_more_id by exact Hf. reflexivity.
Qed.
Lemma more_ok_nil : more_ok [].
Proof. reflexivity. Qed.

(* every sender, ROUTER included (its send_multipart runs the same flag loop over the wire frames): whatever
   flags the application left on the frames, what reaches the connection carries MORE on all but the last *)
Theorem wire_is_one_message k v w :
  send_multipart_of k v = Ok (SRWire w) -> more_ok w.
Proof.
  intros H. apply send_sound in H. subst w. destruct k as [| |manual|prefix| |mandatory manual peer]; cbn [wire_of].
  1-2, 4: apply more_ok_norm.
  - unfold dealer_prepare. destruct manual; [apply more_ok_norm|]. destruct v; [reflexivity | apply more_ok_norm].
  - reflexivity.
  - destruct v as [|idm payload]; [reflexivity|]. destruct peer as [s|]; [apply more_ok_norm | reflexivity].
Qed.
(* PUSH / PUB / DEALER / REP: it is not empty either, unless the application passed no frame *)
Theorem wire_is_one_message_normalising k v w :
  match k with SndRouter _ _ _ => False | _ => True end ->
  send_multipart_of k v = Ok (SRWire w) -> more_ok w /\ (v <> [] -> w <> []).
Proof.
  intros Hk H. split; [exact (wire_is_one_message k v w H)|]. intros Hv.
  pose proof (send_sound k v w H) as ->. apply send_wire in H.
  destruct k as [| |manual|prefix| |]; cbn [res_of wire_of] in *; try contradiction.
  1-2: apply norm_flags_neq, Hv.
  - unfold dealer_prepare. destruct manual; [apply norm_flags_neq, Hv|].
    destruct v; [congruence|]. apply norm_flags_neq. discriminate.
  - apply norm_flags_neq. destruct prefix, v; discriminate.
  - discriminate.
Qed.

(* [id, a, b] with MORE unset on a: the input on which ROUTER send_multipart used to leave the application's
   flags on the wire (C02 finding 4, repaired in rzmq); Props/C02.v evaluates it *)
Definition router_unnormalised_witness : list frame := [(true, [65]); (false, [1]); (false, [2])].

(* every frame the application passed is on the wire, in order, after the envelope frames *)
Theorem send_never_truncates k v w :
  send_multipart_of k v = Ok (SRWire w) ->
  exists env, datas w = env ++ datas (match k with SndRouter _ _ _ => tl v | _ => v end).
Proof.
  intros H. pose proof (send_sound k v w H) as ->. apply send_wire in H.
  destruct k as [| |manual|prefix| |mandatory manual peer]; cbn [res_of wire_of] in *.
  1-2: exists []; apply datas_norm.
  - unfold dealer_prepare. destruct manual; [exists []; apply datas_norm|].
    destruct v as [|x t]; [exists [[]; []]; reflexivity|]. exists [[]].
    change (latch_encode false false (x :: t)) with (delim true :: x :: t). rewrite datas_norm. reflexivity.
  - unfold rep_send_multipart. rewrite datas_norm. unfold datas. rewrite map_app.
    destruct v as [|x t]; [exists (map snd prefix ++ [[]]); rewrite app_nil_r; reflexivity|].
    exists (map snd prefix). reflexivity.
  - discriminate.
  - destruct v as [|idm payload]; [discriminate|].
    destruct peer as [s|]; [|destruct (snd idm); [|destruct mandatory]; discriminate]. cbn [tl]. rewrite datas_norm.
    destruct payload as [|x t]; destruct s, manual;
      first [ exists []; reflexivity | exists [[]]; reflexivity | exists [snd idm]; reflexivity
            | exists [snd idm; []]; reflexivity ].
Qed.

(* DEALER send() part by part *)
Lemma max_parts_big : (VEC_MAX < MAX_DEALER_SEND_BUFFER_PARTS)%nat.
Proof. apply Nat.ltb_lt. vm_compute. reflexivity. Qed.
Lemma dealer_send_part_more manual (parts : batch) f : fmore f = true -> (length (fb_list parts) < VEC_MAX)%nat ->
  exists p1, dealer_send_part manual (Some parts) f = Ok (Some p1, SRNothing) /\ fb_list p1 = fb_list parts ++ [f].
Proof.
  intros Hf L. unfold dealer_send_part. rewrite Hf.
  destruct (Nat.leb_spec MAX_DEALER_SEND_BUFFER_PARTS (fb_len parts)) as [E|_].
  { pose proof max_parts_big. unfold fb_len in E. lia. }
  destruct (fb_push_ok parts f L) as (p1 & -> & L1). exists p1. auto.
Qed.
(* the 256th buffered part panics in FrameBatch::push *)
Lemma dealer_send_part_full manual (parts : batch) f :
  length (fb_list parts) = VEC_MAX -> dealer_send_part manual (Some parts) f = Panic.
Proof.
  intros L. unfold dealer_send_part. rewrite (fb_push_panic parts f L). destruct (fmore f); [|reflexivity].
  destruct (Nat.leb_spec MAX_DEALER_SEND_BUFFER_PARTS (fb_len parts)) as [E|_]; [|reflexivity].
  pose proof max_parts_big. unfold fb_len in E. lia.
Qed.
Lemma dealer_send_parts_more manual : forall (fs : list frame) (parts : batch),
  Forall (fun f => fmore f = true) fs -> (length (fb_list parts) + length fs <= VEC_MAX)%nat ->
  exists parts', dealer_send_parts manual (Some parts) fs = Ok (Some parts', map (fun _ => SRNothing) fs)
                 /\ fb_list parts' = fb_list parts ++ fs.
Proof.
  induction fs as [|f t IH]; intros parts Hm L.
  - exists parts. cbn. rewrite app_nil_r. auto.
  - inversion Hm as [|? ? Hf Ht]; subst. cbn [dealer_send_parts length] in *.
    destruct (dealer_send_part_more manual parts f Hf) as (p1 & -> & L1); [lia|]. cbn [bind].
    destruct (IH p1 Ht) as (p2 & -> & L2); [rewrite L1, app_length; cbn [length]; lia|].
    cbn [bind map]. exists p2. split; [reflexivity|]. rewrite L2, L1, <- app_assoc. reflexivity.
Qed.
Lemma dealer_parts_buffer manual : forall (fs : list frame) (parts : batch),
  Forall (fun f => fmore f = true) fs -> (length (fb_list parts) + length fs <= 255)%nat -> fs <> [] \/ True ->
  exists parts', dealer_send_parts manual (Some parts) fs = Ok (Some parts', map (fun _ => SRNothing) fs)
                 /\ fb_list parts' = fb_list parts ++ fs.
Proof. intros fs parts Hm L _. exact (dealer_send_parts_more manual fs parts Hm L). Qed.
Lemma dealer_send_parts_app manual : forall (a : list frame) tx b,
  dealer_send_parts manual tx (a ++ b) =
  bind (dealer_send_parts manual tx a) (fun '(tx1, ra) =>
  bind (dealer_send_parts manual tx1 b) (fun '(tx2, rb) => Ok (tx2, ra ++ rb))).
Proof.
  induction a as [|f a IH]; intros tx b; cbn [app dealer_send_parts bind].
  - destruct (dealer_send_parts manual tx b) as [[tx2 rb]|]; reflexivity.
  - destruct (dealer_send_part manual tx f) as [[tx1 r]|]; cbn [bind]; [|reflexivity]. rewrite IH.
    destruct (dealer_send_parts manual tx1 a) as [[tx2 ra]|]; cbn [bind]; [|reflexivity].
    destruct (dealer_send_parts manual tx2 b) as [[tx3 rb]|]; reflexivity.
Qed.
Lemma dealer_parts_256_panics manual (fs : list frame) f :
  length fs = VEC_MAX -> Forall (fun f => fmore f = true) fs ->
  dealer_send_parts manual None (fs ++ [f]) = Panic.
Proof.
  intros L Hm. destruct fs as [|f0 t]; [discriminate|]. inversion Hm as [|? ? Hf0 Ht]; subst.
  cbn [app dealer_send_parts]. unfold dealer_send_part at 1. rewrite Hf0. cbn [fb_push fb_new bind].
  destruct (dealer_send_parts_more manual t (FSingle f0) Ht) as (parts & E & Lp); [cbn [fb_list length] in *; lia|].
  rewrite dealer_send_parts_app, E. cbn [bind dealer_send_parts].
  rewrite dealer_send_part_full; [reflexivity|]. rewrite Lp, app_length. cbn [fb_list length] in *. lia.
Qed.

(* PUSH send() part by part *)
(* one peer: all parts of a message reach it, in order *)
Lemma picks_single p : forall k, picks k (mkBal [p] 0) = (repeat p k, mkBal [p] 0).
Proof.
  induction k as [|k IH]; [reflexivity|]. cbn [picks]. unfold get_next. cbn [peers next_idx length Nat.eqb Nat.leb nth].
  change ((0 + 1) mod 1)%nat with 0%nat. rewrite IH. reflexivity.
Qed.
