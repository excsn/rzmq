(* The option layer composed with the engine model: the heartbeat interval as the application sets it.  The engine
   model counts nanoseconds; options are milliseconds (Duration::from_millis). *)
From RZ Require Import Base.Prelude Base.Stepper Model.Codec Proofs.CodecProofs Model.Engine
  Proofs.EngineProofs Proofs.EngineHeartbeat.
From RZ Require Import Model.Options Model.EngineCfg Proofs.OptionsProofs Proofs.EngineCfgProofs.
Local Open Scope N_scope.

Definition ms_to_ns (o : option N) : option N := option_map (fun ms => ms * 1000000) o.

Lemma set_heartbeat_ivl (o : opts) (d : Z) : (0 <= d <= 2147483647)%Z ->
  exists o', apply_opt o HEARTBEAT_IVL (i32_bytes d) = inl o' /\ cfg_heartbeat_ivl o' = ivl_decode d.
Proof.
  intros H. destruct (set_accepts heartbeat_ivl_opt o d) as (o' & Ha & Hv); [lia | unfold i32r; lia |].
  exists o'. split; [exact Ha|]. rewrite (proj1 (cfg_reads_options o')). unfold heartbeat_ivl_of, oget.
  rewrite Hv. apply as_timeo_off_at.
Qed.

(* HEARTBEAT_IVL = d > 0 set through set_option: a tick emits a PING only when none is outstanding and at least d ms have
   passed since the last activity *)
Theorem heartbeat_option_ping_not_early (o : opts) (d : Z) cfg g now x : (0 < d <= 2147483647)%Z ->
  exists o', apply_opt o HEARTBEAT_IVL (i32_bytes d) = inl o' /\
    (c_hb_ivl cfg = ms_to_ns (cfg_heartbeat_ivl o') ->
     In x (snd (e_tick cfg g now)) -> (exists b z, x = OSend b z) ->
     h_waiting (g_hb g) = false /\ Z.to_N d * 1000000 <= now - h_last_activity (g_hb g)).
Proof.
  intros Hd. destruct (set_heartbeat_ivl o d ltac:(lia)) as (o' & Ha & Hc). exists o'. split; [exact Ha|].
  intros Hcfg Hin Hs. destruct (ping_not_early cfg g now x Hin Hs) as (ivl & Hi & Hw & Hle).
  rewrite Hcfg, Hc in Hi. unfold ivl_decode in Hi. destruct (Z.eqb_spec d 0); [lia|].
  cbn [ms_to_ns option_map] in Hi. injection Hi as <-. split; assumption.
Qed.
(* HEARTBEAT_IVL = 0: no tick ever emits anything to send *)
Theorem heartbeat_option_zero_never_pings (o : opts) cfg g now x :
  exists o', apply_opt o HEARTBEAT_IVL (i32_bytes 0) = inl o' /\
    (c_hb_ivl cfg = ms_to_ns (cfg_heartbeat_ivl o') -> In x (snd (e_tick cfg g now)) -> ~ exists b z, x = OSend b z).
Proof.
  destruct (set_heartbeat_ivl o 0 ltac:(lia)) as (o' & Ha & Hc). exists o'. split; [exact Ha|].
  intros Hcfg Hin Hs. destruct (ping_not_early cfg g now x Hin Hs) as (ivl & Hi & _).
  rewrite Hcfg, Hc in Hi. discriminate.
Qed.
