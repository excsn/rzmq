(* The spill-over path of the io_uring handler (Model/Spill.v; property C20). Every operation is a frame around
   the stash (the `_frame` lemmas): it never touches is_closing, and while the pipe's receiver is alive what it
   emits followed by what stays stashed is the old stash (plus the delivered message). The run theorems are
   inductions over these; `spill_complete_thm` adds the final attach + drain with room (`spill_flush_thm`). *)
From RZ Require Import Base.Prelude Model.Spill.

Section SpillProofs.
Context {A : Type}.
Implicit Types (s : spill A) (m : A) (q : list A).

Lemma drain_loop_conserves : forall q rs,
  forallb res_open rs = true ->
  let '(q2, _, e) := drain_loop q rs in e ++ q2 = q.
Proof.
  induction q as [|m q IH]; intros rs Hrs; [reflexivity|].
  cbn [drain_loop]. destruct rs as [|[| |] rs']; cbn [forallb res_open] in Hrs; try reflexivity; try discriminate.
  specialize (IH rs' Hrs). destruct (drain_loop q rs') as [[q2 t] e]. cbn. rewrite IH. reflexivity.
Qed.

Definition ev_msgs (e : sev A) : list A := match e with SDeliver m _ => [m] | _ => [] end.

Lemma sp_delivered_cons e es : sp_delivered (e :: es) = ev_msgs e ++ sp_delivered es.
Proof. destruct e; reflexivity. Qed.

(* The operations touch the stash and the throttle flag only: none of them sets or clears is_closing, and
   while the pipe's receiver is alive what they emit, followed by what stays stashed, is the old stash. *)
Lemma sp_throttle_frame s d :
  s_q (fst (sp_throttle s d)) = s_q s /\ s_closing (fst (sp_throttle s d)) = s_closing s.
Proof.
  unfold sp_throttle. destruct (s_closing s) eqn:E; [auto|].
  destruct (s_q s) eqn:Eq; [|auto]. destruct (s_thr s); [|auto]. destruct (s_attached s && d); cbn; auto.
Qed.

Lemma sp_drain_frame s rs :
  s_closing (fst (sp_drain s rs)) = s_closing s /\
  (forallb res_open rs = true -> snd (sp_drain s rs) ++ s_q (fst (sp_drain s rs)) = s_q s).
Proof.
  unfold sp_drain. destruct (s_q s) as [|x q] eqn:Eq; [cbn; auto|]. destruct (s_attached s); [|cbn; auto].
  pose proof (drain_loop_conserves (x :: q) rs) as H. destruct (drain_loop (x :: q) rs) as [[q2 t] em]. cbn. auto.
Qed.

Lemma sp_prepare_frame s rs d :
  s_closing (fst (sp_prepare s rs d)) = s_closing s /\
  (forallb res_open rs = true -> snd (sp_prepare s rs d) ++ s_q (fst (sp_prepare s rs d)) = s_q s).
Proof.
  unfold sp_prepare. destruct (s_closing s && negb (s_deadline s)); [cbn; auto|].
  destruct (sp_drain_frame s rs) as [Hc Hq]. destruct (sp_drain s rs) as [s1 o]. cbn [fst snd] in *.
  destruct (s_closing s1) eqn:E1; [split; [congruence | exact Hq]|].
  destruct (sp_throttle_frame s1 d) as [-> ->]. split; [congruence | exact Hq].
Qed.

Lemma sp_deliver_frame s m r :
  s_closing (fst (sp_deliver s m r)) = s_closing s /\
  (res_open r = true -> snd (sp_deliver s m r) ++ s_q (fst (sp_deliver s m r)) = s_q s ++ [m]).
Proof.
  unfold sp_deliver. destruct (s_attached s); [|cbn; auto]. destruct (s_q s) eqn:Eq; [|cbn; auto].
  destruct r; cbn; split; auto; discriminate.
Qed.

Lemma sp_step_conserves s e : ev_open e = true ->
  snd (sp_step s e) ++ s_q (fst (sp_step s e)) = s_q s ++ ev_msgs e.
Proof.
  destruct e as [m r| | |rs dd|d|]; cbn [sp_step ev_msgs ev_open fst snd app]; rewrite ?app_nil_r; try reflexivity.
  - apply sp_deliver_frame.
  - apply sp_prepare_frame.
  - intros _. apply sp_throttle_frame.
Qed.

Lemma sp_step_closing s e : ev_not_eof e = true -> s_closing (fst (sp_step s e)) = s_closing s.
Proof.
  destruct e as [m r| | |rs dd|d|]; cbn [ev_not_eof sp_step fst]; try reflexivity; try discriminate; intros _.
  - apply sp_deliver_frame.
  - apply sp_prepare_frame.
  - apply sp_throttle_frame.
Qed.

Lemma sp_run_cons s e (es : list (sev A)) :
  sp_run s (e :: es) =
  (fst (sp_run (fst (sp_step s e)) es), snd (sp_step s e) ++ snd (sp_run (fst (sp_step s e)) es)).
Proof. cbn [sp_run]. destruct (sp_step s e) as [s1 o1]. cbn [fst snd]. destruct (sp_run s1 es). reflexivity. Qed.

Lemma sp_run_conserves : forall (es : list (sev A)) s, forallb ev_open es = true ->
  snd (sp_run s es) ++ s_q (fst (sp_run s es)) = s_q s ++ sp_delivered es.
Proof.
  induction es as [|e es IH]; intros s Ho; [cbn; now rewrite app_nil_r|].
  cbn [forallb] in Ho. apply andb_true_iff in Ho. destruct Ho as [He Hes].
  rewrite sp_run_cons, sp_delivered_cons. cbn [fst snd].
  rewrite <- app_assoc, (IH _ Hes), !app_assoc, (sp_step_conserves s e He). reflexivity.
Qed.

Lemma sp_run_closing : forall (es : list (sev A)) s, forallb ev_not_eof es = true ->
  s_closing (fst (sp_run s es)) = s_closing s.
Proof.
  induction es as [|e es IH]; intros s H; [reflexivity|].
  cbn [forallb] in H. apply andb_true_iff in H. destruct H as [He Hes].
  rewrite sp_run_cons. cbn [fst]. rewrite (IH _ Hes). apply sp_step_closing, He.
Qed.

Lemma sp_run_app : forall (es1 es2 : list (sev A)) s,
  sp_run s (es1 ++ es2) =
  let '(s1, o1) := sp_run s es1 in let '(s2, o2) := sp_run s1 es2 in (s2, o1 ++ o2).
Proof.
  induction es1 as [|e es1 IH]; intros es2 s.
  - cbn. destruct (sp_run s es2). reflexivity.
  - cbn [app sp_run]. destruct (sp_step s e) as [s1 o1]. rewrite IH.
    destruct (sp_run s1 es1) as [s2 o2]. destruct (sp_run s2 es2) as [s3 o3].
    rewrite app_assoc. reflexivity.
Qed.

Lemma drain_loop_all_ok : forall q n, (length q <= n)%nat ->
  drain_loop q (repeat TOk n) = ([], Some false, q).
Proof.
  induction q as [|m q IH]; intros n Hn; [reflexivity|].
  destruct n as [|n]; [cbn in Hn; lia|]. cbn [repeat drain_loop].
  rewrite IH by (cbn in Hn; lia). reflexivity.
Qed.

Lemma sp_drain_all_ok s n : s_attached s = true -> (length (s_q s) <= n)%nat ->
  sp_drain s (repeat TOk n) = (match s_q s with [] => s | _ => set_q s [] false end, s_q s).
Proof.
  intros Ha Hn. unfold sp_drain. destruct (s_q s) eqn:Eq; [reflexivity|].
  rewrite Ha, drain_loop_all_ok by exact Hn. reflexivity.
Qed.

(* drain on resume: once attached and not closing, a pipe with enough room takes the whole stash, in order *)
Theorem spill_flush_thm : forall s n d,
  s_attached s = true -> s_closing s && negb (s_deadline s) = false -> (length (s_q s) <= n)%nat ->
  snd (sp_prepare s (repeat TOk n) d) = s_q s /\ s_q (fst (sp_prepare s (repeat TOk n) d)) = [] /\
  (s_q s <> [] -> s_thr (fst (sp_prepare s (repeat TOk n) d)) = false).
Proof.
  intros s n d Ha Hc Hn. unfold sp_prepare. rewrite Hc, sp_drain_all_ok by assumption.
  split; [reflexivity|]. cbn [fst snd]. destruct (s_q s) eqn:Eq.
  - split; [|congruence]. destruct (s_closing s); [exact Eq|]. rewrite (proj1 (sp_throttle_frame s d)). exact Eq.
  - unfold sp_throttle. cbn [set_q s_closing s_q s_thr]. destruct (s_closing s); cbn; auto.
Qed.

(* nothing lost, nothing duplicated, order kept - and everything arrives once the socket has
   attached its pipe and made room, provided the connection has not been marked closing *)
Theorem spill_complete_thm : forall (es : list (sev A)) n d,
  forallb ev_open es = true -> forallb ev_not_eof es = true ->
  (length (s_q (fst (sp_run sp_init es))) <= n)%nat ->
  snd (sp_run sp_init (es ++ [SAttach; SPrepare (repeat TOk n) d])) = sp_delivered es /\
  s_q (fst (sp_run sp_init (es ++ [SAttach; SPrepare (repeat TOk n) d]))) = [].
Proof.
  intros es n d Ho He Hn. rewrite sp_run_app.
  pose proof (sp_run_conserves es sp_init Ho) as Hf. pose proof (sp_run_closing es sp_init He) as Hc.
  destruct (sp_run sp_init es) as [s1 o1]. cbn [fst snd] in *.
  cbn [sp_run sp_step].
  set (s2 := {| s_attached := true; s_q := s_q s1; s_thr := false; s_closing := s_closing s1;
                s_deadline := s_deadline s1; s_errclose := s_errclose s1 |}).
  destruct (spill_flush_thm s2 n d eq_refl) as (H1 & H2 & _).
  - cbn. rewrite Hc. reflexivity.
  - exact Hn.
  - destruct (sp_prepare s2 (repeat TOk n) d) as [s3 o3]. cbn [fst snd] in *.
    subst o3. cbn [s2 s_q] in *. rewrite !app_nil_r. split; [exact Hf | exact H2].
Qed.

End SpillProofs.

(* the LIFO mutant of the stash (Spill.sp_deliver_lifo) is caught by the statement of C20_spill_fifo *)
Theorem spill_lifo_mutant_differs :
  let s := fst (sp_deliver_lifo (fst (sp_deliver_lifo (@sp_init nat) 1 TOk)) 2 TOk) in
  snd (sp_step (fst (sp_step s SAttach)) (SPrepare [TOk; TOk] true)) = [2; 1].
Proof. vm_compute. reflexivity. Qed.
