(* WaitGroup::wait vs done(): an invariant of the waiter that excludes the lost wake-up on every schedule with no
   notify_waiters between check and creation of the future, hence on every schedule of the repaired order, where
   a parked waiter also returns once the count is zero. *)
From RZ Require Import Base.Prelude Model.WgWait.

(* no notify_waiters() lands between the check and the creation of the Notified future *)
Fixpoint ggap_free (s : gst) (xs : list gsch) : Prop :=
  match xs with
  | [] => True
  | x :: xs' => match x with GE ENotify => g_pc s <> GCreate | _ => True end /\ ggap_free (gsstep s x) xs'
  end.

(* "the count is non-zero, or a done() that zeroed it has still to notify" *)
Definition gpending (s : gst) : Prop := 0 < g_count s \/ 0 < g_pend s.

(* the invariant: the repaired order never reaches the check-then-create states; between check and create
   (which `ggap_free` keeps free of notify_waiters) the count is still `gpending`; and a waiter whose future
   still shows the counter value `seen` it was created with sleeps only while the count is `gpending`, because
   the notify_waiters of the done() that zeroed the count raises the counter *)
Definition GJ (s : gst) : Prop :=
  (g_fixed s = true -> g_pc s <> GCreate /\ g_pc s <> GCheck) /\
  match g_pc s with
  | GCreate => gpending s
  | GFCheck seen => seen <= g_calls s
  | GAwait seen => seen <= g_calls s /\ (g_calls s = seen -> gpending s)
  | _ => True
  end.

Lemma GJ_init f : GJ (g0 f).
Proof. split; [intros _; split; discriminate|exact I]. Qed.

Lemma GJ_gstep s s' : GJ s -> gstep s = Some s' -> GJ s'.
Proof.
  destruct s as [n k pd f pc pn]. unfold GJ, gstep, gset_pc, gpending.
  cbn [g_pc g_fixed g_calls g_count g_pend]. intros [Hf HJ] H.
  destruct pc as [| |seen| | |seen|].
  - (* GIdle: the fast path returns, or has seen a non-zero count *)
    injection H as <-. cbn [g_pc g_fixed g_count g_pend]. destruct (Nat.eqb_spec n 0); [|destruct f]; cbn [g_pc].
    + split; [intros _; split; discriminate|exact I].
    + split; [intros _; split; discriminate|exact I].
    + split; [discriminate|]. left. lia.
  - (* GCreate -> GAwait: the future is created at the present counter, the count still pending *)
    injection H as <-. cbn [g_pc g_fixed g_calls g_count g_pend]. split.
    + intros E. destruct (Hf E) as [Hc _]. congruence.
    + split; [apply le_n|]. intros _. exact HJ.
  - (* GAwait: woken only when the counter has moved on *)
    destruct (Nat.eqb_spec k seen); [discriminate|]. injection H as <-. cbn [g_pc g_fixed].
    destruct f; (split; [intros E; try discriminate E; split; discriminate|exact I]).
  - (* GCheck: returns, or has seen a non-zero count *)
    injection H as <-. cbn [g_pc g_fixed g_count g_pend]. split.
    + intros E. destruct (Hf E) as [_ Hc]. congruence.
    + destruct (Nat.eqb_spec n 0); cbn [g_pc]; [exact I|]. left. lia.
  - (* GFCreate -> GFCheck *)
    injection H as <-. cbn [g_pc g_fixed g_calls]. split; [intros _; split; discriminate|apply le_n].
  - (* GFCheck: returns, or parks on the future it holds, having seen a non-zero count *)
    injection H as <-. cbn [g_pc g_fixed g_calls g_count g_pend]. destruct (Nat.eqb_spec n 0); cbn [g_pc].
    + split; [intros _; split; discriminate|exact I].
    + split; [intros _; split; discriminate|]. split; [exact HJ|]. intros _. left. lia.
  - (* GDone *)
    discriminate H.
Qed.

Lemma GJ_gestep s e : GJ s -> (e = ENotify -> g_pc s <> GCreate) -> GJ (gestep s e).
Proof.
  destruct s as [n k pd f pc pn]. unfold GJ, gpending. cbn [g_pc g_fixed g_calls g_count g_pend].
  intros [Hf HJ] Hne. destruct e as [d| |]; cbn [gestep g_pc g_fixed g_calls g_count g_pend].
  - (* EAdd: a pending count stays pending *)
    split; [exact Hf|]. destruct pc; try exact HJ; lia.
  - (* EDec: a done() that zeroes the count raises g_pend *)
    destruct n as [|n']; cbn [g_pc g_fixed g_calls g_count g_pend]; (split; [exact Hf|]).
    + exact HJ.
    + destruct pc; try exact HJ; destruct (Nat.eqb_spec n' 0); lia.
  - (* ENotify: g_pend falls, but the counter rises, which excuses every future that exists; only the waiter
       between check and creation has none, and Hne excludes it *)
    destruct pd as [|pd']; cbn [g_pc g_fixed g_calls g_count g_pend]; (split; [exact Hf|]); [exact HJ|].
    destruct pc; try exact I; [destruct (Hne eq_refl eq_refl)|lia|lia].
Qed.

Lemma GJ_gsstep s x : GJ s -> match x with GE ENotify => g_pc s <> GCreate | _ => True end -> GJ (gsstep s x).
Proof.
  intros HJ Hx. destruct x as [|e]; cbn [gsstep].
  - destruct (gstep s) as [s'|] eqn:E; [exact (GJ_gstep s s' HJ E)|exact HJ].
  - apply GJ_gestep; [exact HJ|]. intros ->. exact Hx.
Qed.

Lemma GJ_grun xs : forall s, GJ s -> ggap_free s xs -> GJ (grun xs s).
Proof.
  induction xs as [|x xs IH]; intros s HJ Hg; [exact HJ|]. destruct Hg as [Hx Hg].
  exact (IH _ (GJ_gsstep s x HJ Hx) Hg).
Qed.

Lemma GJ_not_lost s : GJ s -> glost s = false.
Proof.
  unfold GJ, glost, gpending. intros [_ HJ]. destruct (g_pc s); auto.
  destruct (Nat.eqb_spec (g_calls s) seen) as [E|]; [|reflexivity]. destruct HJ as [_ HJ]. specialize (HJ E).
  destruct (Nat.eqb_spec (g_count s) 0); [|reflexivity]. destruct (Nat.eqb_spec (g_pend s) 0); [lia|reflexivity].
Qed.

(* once lost, only a later done() that zeroes the count again (after an add) wakes the waiter *)
Theorem wg_lost_stays_lost s e : glost s = true -> g_panic s = false ->
  match e with EAdd _ => True | EDec => False | ENotify => True end ->
  match g_pc (gestep s e) with GAwait seen => g_calls (gestep s e) = seen | _ => False end.
Proof.
  unfold glost. destruct s as [n k pd f pc pn]. cbn [g_pc g_calls g_count g_pend]. destruct pc; try discriminate.
  intros H _ He. apply andb_true_iff in H as [H H3]. apply andb_true_iff in H as [H1 H2].
  apply Nat.eqb_eq in H1, H2, H3. subst. destruct e; try tauto; cbn [gestep g_pc g_calls g_pend]; reflexivity.
Qed.

Lemma gsstep_fixed s x : g_fixed (gsstep s x) = g_fixed s.
Proof.
  destruct x as [|[| |]]; cbn [gsstep gestep].
  - unfold gstep. destruct (g_pc s); try destruct (_ =? _); reflexivity.
  - reflexivity.
  - destruct (g_count s); reflexivity.
  - destruct (g_pend s); reflexivity.
Qed.

(* when the future is created before the check, no schedule has the window: GJ itself excludes GCreate *)
Lemma GJ_grun_fixed xs : forall s, GJ s -> g_fixed s = true -> GJ (grun xs s).
Proof.
  induction xs as [|x xs IH]; intros s HJ Hf; [exact HJ|]. apply IH; [|rewrite gsstep_fixed; exact Hf].
  apply GJ_gsstep; [exact HJ|]. destruct x as [|[| |]]; try exact I. apply HJ, Hf.
Qed.

Lemma GJ_fixed xs : GJ (grun xs (g0 true)).
Proof. apply GJ_grun_fixed; [apply GJ_init|reflexivity]. Qed.

Theorem wg_fixed_safe xs : glost (grun xs (g0 true)) = false.
Proof. apply GJ_not_lost, GJ_fixed. Qed.

(* liveness: a parked waiter returns as soon as the count is zero and the zeroing done() has
   notified - it is runnable, and its next steps (wake, [create,] check) return; in either order of
   check and creation *)
Lemma wg_parked_returns s seen : GJ s -> g_pc s = GAwait seen -> g_count s = 0 -> g_pend s = 0 ->
  g_pc (grun [GW; GW; GW] s) = GDone.
Proof.
  intros HJ. apply GJ_not_lost in HJ. revert HJ. unfold glost. destruct s as [n k pd f pc pn].
  cbn [g_pc g_fixed g_calls g_count g_pend]. intros HJ -> -> ->. rewrite !andb_true_r in HJ.
  cbn [grun fold_left gsstep gstep g_pc g_calls g_fixed gset_pc g_count]. rewrite HJ. destruct f; reflexivity.
Qed.

(* a poll that finds the count at zero with no notify outstanding returns: a waiter that cannot
   move then would be a lost one *)
Theorem wg_fixed_poll_returns xs : let s := grun xs (g0 true) in
  g_count s = 0 -> g_pend s = 0 -> gstep s = None -> g_pc s = GDone.
Proof.
  intros s H0 Hp Hn. pose proof (wg_fixed_safe xs) as L. fold s in L. unfold glost, gstep in *.
  destruct (g_pc s); try discriminate; try reflexivity.
  destruct (g_calls s =? seen); [|discriminate]. rewrite H0, Hp in L. discriminate.
Qed.
