(* From the sender's FrameBatch to the receiver's batch: frames that leave a socket with MORE on all but the
   last are reassembled by the peer's engine into exactly one batch holding exactly those frames
   (data_phase_delivers), however the byte stream is cut; a wire of more than 255 frames is answered with
   PeerError and never delivered, not even in part (data_phase_refuses_overlong). *)
From RZ Require Import Base.Prelude Base.Stepper Model.Codec Proofs.CodecProofs Model.Engine Proofs.EngineProofs
  Proofs.EngineLimit Model.RouterMap Model.Envelope Model.FrameBatch Model.SendFlags Proofs.EnvelopeProofs
  Proofs.SendFlagsProofs.
Local Open Scope N_scope.

(* every frame fits the receiver's MAXMSGSIZE (and a length below 2^64: CodecProofs.fits) *)
Definition wire_admitted (cfg : ecfg) (w : list Envelope.frame) : Prop :=
  Forall (fun f => admitted (c_maxsz cfg) (to_codec f)) w.
Definition sendable (cfg : ecfg) (w : list Envelope.frame) : Prop :=
  w <> [] /\ more_ok w /\ (length w <= MAX_FRAMES)%nat /\ wire_admitted cfg w.

Lemma wf_msg_of_wire cfg w : sendable cfg w -> wf_msg cfg (map to_codec w).
Proof.
  intros (Hn & M & L & A). constructor.
  - destruct (more_ok_split w Hn M) as (init & last & -> & Hi & Hl).
    exists (map to_codec init), (to_codec last). rewrite map_app. split; [reflexivity|]. split; [|exact Hl].
    apply Forall_map. eapply Forall_impl; [|exact Hi]. intros f Hf. exact Hf.
  - apply Forall_map. eapply Forall_impl; [|exact A]. intros f Hf. split; [reflexivity | exact Hf].
  - rewrite map_length. exact L.
Qed.

Lemma wf_msgs_of_wires cfg ws : Forall (sendable cfg) ws -> Forall (wf_msg cfg) (map (map to_codec) ws).
Proof. intros H. apply Forall_map. eapply Forall_impl; [|exact H]. exact (wf_msg_of_wire cfg). Qed.

Theorem wire_reassembled cfg g ws cs :
  e_phase (g_st g) = PData -> e_partial (g_st g) = [] -> g_acc g = [] ->
  Forall (sendable cfg) ws ->
  concat (map fst cs) = concat (map enc_codec (concat (map (map to_codec) ws))) ->
  let '(g', o) := nets cfg g cs in
  o = map ODeliver (map (map to_codec) ws) /\ g_st g' = g_st g /\ g_acc g' = [].
Proof.
  intros Hph Hp Hacc Hall Hc.
  exact (data_phase_delivers cfg g _ cs Hph Hp Hacc (wf_msgs_of_wires cfg ws Hall) Hc).
Qed.

(* a wire of more than 255 frames (only a sender other than rzmq's send_multipart can produce it: parts sent
   one by one, or a foreign peer): PeerError at the 256th frame, nothing of it delivered *)
Theorem overlong_wire_refused cfg g ws (w : list Envelope.frame) tail cs :
  e_phase (g_st g) = PData -> e_partial (g_st g) = [] -> g_acc g = [] ->
  Forall (sendable cfg) ws ->
  (MAX_FRAMES < length w)%nat -> wire_admitted cfg w ->
  Forall (fun f => fmore f = true) (firstn MAX_FRAMES w) ->
  concat (map fst cs) = concat (map enc_codec (concat (map (map to_codec) ws))) ++
                        concat (map enc_codec (map to_codec w)) ++ tail ->
  let '(g', o) := nets cfg g cs in
  o = map ODeliver (map (map to_codec) ws) ++ [OErr EProto] /\ e_phase (g_st g') = PClosed.
Proof.
  intros Hph Hp Hacc Hall L A Hm Hc.
  (* w = init (255 frames, all MORE) ++ f :: rest *)
  destruct (skipn MAX_FRAMES w) as [|f rest] eqn:Es.
  { apply (f_equal (@length _)) in Es. rewrite skipn_length in Es. cbn [length] in Es. lia. }
  remember (firstn MAX_FRAMES w) as init eqn:Ei.
  assert (w = init ++ f :: rest) as Ew by (rewrite Ei, <- Es; symmetry; apply firstn_skipn).
  assert (length init = MAX_FRAMES) as Li by (rewrite Ei; apply firstn_length_le; lia).
  clear Ei Es.
  assert (wire_admitted cfg init /\ admitted (c_maxsz cfg) (to_codec f)) as [Ai Af].
  { unfold wire_admitted in A. rewrite Ew in A. apply Forall_app in A. destruct A as [A1 A2].
    inversion A2; subst. split; assumption. }
  apply (data_phase_refuses_overlong cfg g (map (map to_codec) ws) (map to_codec init) (to_codec f)
           (concat (map enc_codec (map to_codec rest)) ++ tail) cs Hph Hp Hacc).
  - exact (wf_msgs_of_wires cfg ws Hall).
  - rewrite map_length. exact Li.
  - apply Forall_map. apply Forall_forall. intros x Hx. split.
    + rewrite Forall_forall in Hm. exact (Hm x Hx).
    + split; [reflexivity|]. unfold wire_admitted in Ai. rewrite Forall_forall in Ai. exact (Ai x Hx).
  - split; [reflexivity | exact Af].
  - rewrite Hc. f_equal. rewrite Ew, !map_app, !concat_app. cbn [map concat]. rewrite <- !app_assoc. reflexivity.
Qed.
