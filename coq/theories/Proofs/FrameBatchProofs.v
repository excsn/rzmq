(* FrameBatch as a list: every operation either panics - exactly at the stated condition - or acts as the
   corresponding list operation on `fb_list`. *)
From RZ Require Import Base.Prelude Model.FrameBatch.

Global Opaque VEC_MAX.
Lemma vec_max_eq : VEC_MAX = 255%nat.
Proof. reflexivity. Qed.
(* The limit goes by its opaque name in the statements here and in the files that build on this one, and the fact
   below is all their arithmetic needs to know of it: `lia` takes a numeral of type nat apart successor by successor,
   which is dear for 255.  A statement that spells the number out follows from the one over VEC_MAX by conversion,
   or after `rewrite <- vec_max_eq`. *)
Lemma vec_max_big : (2 < VEC_MAX)%nat.
Proof. rewrite vec_max_eq. apply Nat.leb_le. reflexivity. Qed.

Section P.
Context {A : Type}.
Implicit Types (b : fb A) (v l xs : list A) (x : A).

Lemma bind_ok {X Y} (o : out X) (f : X -> out Y) y :
  bind o f = Ok y -> exists z, o = Ok z /\ f z = Ok y.
Proof. destruct o; cbn; [eauto | discriminate]. Qed.
Lemma bind_panic {X Y} (o : out X) (f : X -> out Y) :
  bind o f = Panic <-> o = Panic \/ exists z, o = Ok z /\ f z = Panic.
Proof.
  destruct o; cbn; split; intros H; eauto.
  - destruct H as [H | (x0 & [= <-] & H)]; [discriminate | exact H].
Qed.

Lemma vec_push_ok v x : (length v < VEC_MAX)%nat -> vec_push v x = Ok (v ++ [x]).
Proof. intros H. unfold vec_push. destruct (Nat.eqb_spec (length v) VEC_MAX); [lia | reflexivity]. Qed.
Lemma vec_push_panic v x : length v = VEC_MAX -> vec_push v x = Panic.
Proof. intros H. unfold vec_push. rewrite H, Nat.eqb_refl. reflexivity. Qed.
Lemma vec_with_capacity_ok n : (n <= VEC_MAX)%nat -> @vec_with_capacity A n = Ok [].
Proof. intros H. unfold vec_with_capacity. destruct (Nat.ltb_spec VEC_MAX n); [lia | reflexivity]. Qed.
Lemma vec_with_capacity_panic n : (VEC_MAX < n)%nat -> @vec_with_capacity A n = Panic.
Proof. intros H. unfold vec_with_capacity. apply Nat.ltb_lt in H. rewrite H. reflexivity. Qed.

Lemma vec_push_all_ok xs : forall v, (length v + length xs <= VEC_MAX)%nat -> vec_push_all v xs = Ok (v ++ xs).
Proof.
  induction xs as [|x t IH]; intros v H; cbn [vec_push_all].
  - rewrite app_nil_r. reflexivity.
  - cbn [length] in H. rewrite vec_push_ok by lia. cbn [bind]. rewrite IH.
    + rewrite <- app_assoc. reflexivity.
    + rewrite app_length. cbn [length]. lia.
Qed.

Lemma fb_len_list b : fb_len b = length (fb_list b).
Proof. reflexivity. Qed.
Lemma demote_list v : fb_list (demote v) = v.
Proof. destruct v as [|a [|c [|d t]]]; reflexivity. Qed.

(* each operation, by cases on the variant:
   when it panics, and what it holds when it does not *)
Lemma fb_push_case b x :
  match fb_push b x with
  | Ok b' => fb_list b' = fb_list b ++ [x] /\ length (fb_list b) <> VEC_MAX
  | Panic => length (fb_list b) = VEC_MAX
  end.
Proof.
  pose proof vec_max_big. destruct b as [|a|a c|v].
  - split; [reflexivity | cbn; lia].
  - split; [reflexivity | cbn; lia].
  - replace (fb_push (FTwo a c) x) with (Ok (FMany [a; c; x])) by reflexivity. split; [reflexivity | cbn; lia].
  - cbn [fb_push fb_list]. unfold vec_push.
    destruct (Nat.eqb_spec (length v) VEC_MAX) as [E|E]; cbn [bind]; [exact E | split; [reflexivity | exact E]].
Qed.
Lemma fb_with_capacity_case n :
  match @fb_with_capacity A n with
  | Ok b => fb_list b = [] /\ (n <= VEC_MAX)%nat
  | Panic => (VEC_MAX < n)%nat
  end.
Proof.
  pose proof vec_max_big. unfold fb_with_capacity, vec_with_capacity.
  destruct (Nat.leb_spec n 2); [split; [reflexivity | lia]|].
  destruct (Nat.ltb_spec VEC_MAX n) as [E|E]; cbn [bind]; [exact E | split; [reflexivity | exact E]].
Qed.
Lemma fb_insert_case i x b :
  match fb_insert i x b with
  | Ok b' => fb_list b' = firstn i (fb_list b) ++ x :: skipn i (fb_list b) /\
             (i <= length (fb_list b))%nat /\ length (fb_list b) <> VEC_MAX
  | Panic => (length (fb_list b) < i)%nat \/ length (fb_list b) = VEC_MAX
  end.
Proof.
  pose proof vec_max_big. destruct b as [|a|a c|v]; cbn [fb_insert fb_list length].
  - destruct i; [split; [reflexivity | lia] | lia].
  - destruct i as [|[|i]]; [| |lia]; (split; [reflexivity | lia]).
  - destruct i as [|[|[|i]]]; [| | |lia]; (split; [reflexivity | lia]).
  - unfold vec_insert. destruct (Nat.ltb_spec (length v) i); [cbn [bind]; lia|].
    destruct (Nat.eqb_spec (length v) VEC_MAX); cbn [bind fb_list]; [lia | split; [reflexivity | lia]].
Qed.
Lemma fb_remove_case i b :
  match fb_remove i b with
  | Ok (x, b') => nth_error (fb_list b) i = Some x /\ fb_list b' = firstn i (fb_list b) ++ skipn (S i) (fb_list b)
  | Panic => (length (fb_list b) <= i)%nat
  end.
Proof.
  destruct b as [|a|a c|v]; cbn [fb_remove fb_list length].
  - lia.
  - destruct i; [split; reflexivity | lia].
  - destruct i as [|[|i]]; [split; reflexivity | split; reflexivity | lia].
  - unfold vec_remove. destruct (nth_error v i) eqn:E; cbn [bind]; [|apply nth_error_None; exact E].
    split; [reflexivity | apply demote_list].
Qed.

(* `o` builds the batch of the frames `l`: it answers Ok, with exactly those frames, when they fit a VecU8,
   and panics when they do not *)
Definition builds (o : out (fb A)) l : Prop :=
  match o with
  | Ok b => fb_list b = l /\ (length l <= VEC_MAX)%nat
  | Panic => (VEC_MAX < length l)%nat
  end.
Lemma builds_ok o l : builds o l -> (length l <= VEC_MAX)%nat -> exists b, o = Ok b /\ fb_list b = l.
Proof. destruct o as [b|]; cbn; [intros [H _] _; eauto | lia]. Qed.
Lemma builds_panic o l : builds o l -> (VEC_MAX < length l)%nat -> o = Panic.
Proof. destruct o; cbn; [lia | reflexivity]. Qed.

Lemma fb_push_builds b x : (length (fb_list b) <= VEC_MAX)%nat -> builds (fb_push b x) (fb_list b ++ [x]).
Proof.
  intros W. pose proof (fb_push_case b x) as C. unfold builds. rewrite app_length. cbn [length].
  destruct (fb_push b x); [split; [tauto | lia] | lia].
Qed.
Lemma fb_insert_builds i x b : (length (fb_list b) <= VEC_MAX)%nat -> (i <= length (fb_list b))%nat ->
  builds (fb_insert i x b) (firstn i (fb_list b) ++ x :: skipn i (fb_list b)).
Proof.
  intros W Hi. pose proof (fb_insert_case i x b) as C. unfold builds.
  rewrite app_length, firstn_length_le by exact Hi. cbn [length]. rewrite skipn_length.
  destruct (fb_insert i x b); [split; [tauto | lia] | lia].
Qed.
Lemma fb_extend_builds xs : forall b, (length (fb_list b) <= VEC_MAX)%nat -> builds (fb_extend b xs) (fb_list b ++ xs).
Proof.
  induction xs as [|x t IH]; intros b W; cbn [fb_extend].
  - rewrite app_nil_r. split; [reflexivity | exact W].
  - pose proof (fb_push_builds b x W) as S. destruct (fb_push b x) as [b1|]; cbn [bind].
    + destruct S as [L1 W1]. specialize (IH b1). rewrite L1, <- app_assoc in IH. exact (IH W1).
    + unfold builds in *. rewrite app_length in *. cbn [length] in *. lia.
Qed.
(* From<Vec<Msg>> *)
Lemma fb_from_vec_builds xs : builds (fb_from_vec xs) xs.
Proof.
  pose proof vec_max_big. unfold builds. destruct xs as [|a [|c [|d t]]]; try (split; [reflexivity | cbn; lia]).
  unfold fb_from_vec. destruct (le_lt_dec (length (a :: c :: d :: t)) VEC_MAX) as [L|L].
  - rewrite vec_with_capacity_ok by exact L. cbn [bind]. rewrite vec_push_all_ok by exact L.
    split; [reflexivity | exact L].
  - rewrite vec_with_capacity_panic by exact L. exact L.
Qed.
Lemma fb_from_vec_is_empty xs b : fb_from_vec xs = Ok b -> fb_is_empty b = match xs with [] => true | _ => false end.
Proof.
  destruct xs as [|a [|c [|d t]]]; cbn; try (intros [= <-]; reflexivity).
  intros H. apply bind_ok in H. destruct H as (v0 & _ & H). apply bind_ok in H. destruct H as (v & _ & [= <-]). reflexivity.
Qed.

Lemma fb_push_ok b x : (length (fb_list b) < VEC_MAX)%nat ->
  exists b', fb_push b x = Ok b' /\ fb_list b' = fb_list b ++ [x].
Proof. intros H. apply builds_ok; [apply fb_push_builds | rewrite app_length; cbn [length]]; lia. Qed.
Lemma fb_push_panic b x : length (fb_list b) = VEC_MAX -> fb_push b x = Panic.
Proof. intros H. pose proof (fb_push_case b x) as C. destruct (fb_push b x); [tauto | reflexivity]. Qed.
Lemma fb_extend_ok xs b : (length (fb_list b) + length xs <= VEC_MAX)%nat ->
  exists b', fb_extend b xs = Ok b' /\ fb_list b' = fb_list b ++ xs.
Proof. intros H. apply builds_ok; [apply fb_extend_builds; lia | rewrite app_length; exact H]. Qed.
Lemma fb_extend_panic xs : forall b, fb_wf b -> (255 < length (fb_list b) + length xs)%nat ->
  fb_extend b xs = Panic.
Proof.
  intros b W H. apply (builds_panic _ (fb_list b ++ xs)); [apply fb_extend_builds, W | rewrite app_length; exact H].
Qed.
Lemma fb_extend_sound xs : forall b b', fb_extend b xs = Ok b' -> fb_list b' = fb_list b ++ xs.
Proof.
  induction xs as [|x t IH]; intros b b' H; cbn [fb_extend] in H.
  - injection H as <-. rewrite app_nil_r. reflexivity.
  - apply bind_ok in H. destruct H as (b1 & H1 & H2). pose proof (fb_push_case b x) as C. rewrite H1 in C.
    rewrite (IH _ _ H2), (proj1 C), <- app_assoc. reflexivity.
Qed.
Lemma fb_insert_range_panic i x b : (length (fb_list b) < i)%nat -> fb_insert i x b = Panic.
Proof. intros H. pose proof (fb_insert_case i x b) as C. destruct (fb_insert i x b); [lia | reflexivity]. Qed.
Lemma fb_remove0 f t b : fb_list b = f :: t -> exists b', fb_remove 0 b = Ok (f, b') /\ fb_list b' = t.
Proof.
  intros H. pose proof (fb_remove_case 0 b) as C. rewrite H in C. destruct (fb_remove 0 b) as [[x b']|]; [|cbn in C; lia].
  destruct C as [[= <-] L]. eauto.
Qed.

Lemma firstn_skipn_len i x l : (i <= length l)%nat -> length (firstn i l ++ x :: skipn i l) = S (length l).
Proof. intros H. rewrite app_length, firstn_length_le by exact H. cbn [length]. rewrite skipn_length. lia. Qed.
Lemma vec_pop_spec v : vec_pop v = match rev v with [] => (None, v) | x :: r => (Some x, rev r) end.
Proof. reflexivity. Qed.
Lemma fb_pop_snoc b l x : fb_list b = l ++ [x] -> exists b', fb_pop b = (Some x, b') /\ fb_list b' = l.
Proof.
  intros H. destruct b as [|a|a c|v]; cbn [fb_pop fb_list] in *.
  - destruct l; discriminate.
  - destruct l as [|y l]; [injection H as <-; eexists; split; reflexivity|].
    destruct l; discriminate.
  - destruct l as [|y [|z l]]; try discriminate.
    + injection H as <- <-. eexists; split; reflexivity.
    + destruct l; discriminate.
  - unfold vec_pop. rewrite H, rev_app_distr. cbn [rev app]. rewrite rev_involutive.
    eexists; split; [reflexivity|]. apply demote_list.
Qed.
Lemma fb_pop_nil b : fb_list b = [] -> fst (fb_pop b) = None.
Proof. destruct b as [|a|a c|v]; cbn; try discriminate; [reflexivity|]. intros ->. reflexivity. Qed.

Lemma fb_index_ok b i x : nth_error (fb_list b) i = Some x -> fb_index b i = Ok x.
Proof. intros H. unfold fb_index. rewrite H. reflexivity. Qed.
Lemma fb_index0 b f t : fb_list b = f :: t -> fb_index b 0 = Ok f.
Proof. intros H. unfold fb_index. rewrite H. reflexivity. Qed.
Lemma fb_set_list b l : length l = length (fb_list b) -> fb_list (fb_set b l) = l.
Proof.
  destruct b as [|a|a c|v]; cbn [fb_set fb_list length].
  - destruct l; [reflexivity | discriminate].
  - destruct l as [|y [|z l]]; try discriminate. reflexivity.
  - destruct l as [|y [|z [|w l]]]; try discriminate. reflexivity.
  - reflexivity.
Qed.
Lemma fb_set_is_empty b l : fb_is_empty (fb_set b l) = fb_is_empty b.
Proof.
  destruct b as [|a|a c|v]; cbn; try reflexivity.
  - destruct l as [|y [|z l]]; reflexivity.
  - destruct l as [|y [|z [|w l]]]; reflexivity.
Qed.
Lemma fb_is_empty_list b : fb_is_empty b = true -> fb_list b = [].
Proof. destruct b; cbn; congruence. Qed.
(* a batch obtained by pushes / From<Vec> / the engine is empty exactly when it holds no frame *)
Definition fb_canon b : Prop := fb_is_empty b = match fb_list b with [] => true | _ => false end.
End P.
