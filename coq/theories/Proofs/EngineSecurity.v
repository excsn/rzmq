(* With a mechanism configured, the engine reports a completed handshake or delivers a message only after a
   non-NULL mechanism completed over ZMTP/3 (no_bypass, by an invariant of the micro-steps lifted to runs and input
   histories); a PLAIN server becomes authenticated only by decoding a HELLO with the configured credentials. *)
From RZ Require Import Base.Prelude Base.Stepper Model.Codec Proofs.CodecProofs Model.Engine
  Proofs.EngineProofs Proofs.EngineSafety.
Local Open Scope N_scope.

Definition secure_done (st : estate) : Prop :=
  e_version st = Some V3 /\ mech_complete (e_mech st) = true /\ e_mech st <> MNull.

Definition emits (o : list eout) : bool :=
  existsb (fun x => match x with OHandshake _ _ | ODeliver _ => true | _ => false end) o.

Definition sec_inv (st : estate) : Prop :=
  match e_phase st with
  | PReady | PData => secure_done st
  | PV2Identity => False
  | PSecurity => e_version st = Some V3 /\ e_mech st <> MNull
  | PGreeting => e_version st <> Some V2
  | PClosed => True
  end.

Lemma negotiate_not_null cfg fld m : c_sec_enabled cfg = true -> negotiate cfg fld = inl m -> m <> MNull.
Proof.
  intros Hs H. pose proof (negotiate_cases cfg fld) as C. rewrite H in C.
  destruct C as [[_ ?]|[->| ->]]; [congruence|discriminate..].
Qed.

Lemma produce_not_null cfg m m' p : m_produce cfg m = (m', p) -> m <> MNull -> m' <> MNull.
Proof. destruct m as [|s []|[] [] ?]; intros [= <- <-] Hn; (exact Hn || discriminate). Qed.

Lemma process_not_null cfg m m' e tok : m_process cfg m tok = (m', e) -> m <> MNull -> m' <> MNull.
Proof.
  intros H Hn. pose proof (process_cases cfg m tok) as C. rewrite H in C.
  destruct m; [congruence| |destruct C as [-> _]; discriminate].
  destruct C as [[-> _]|[_ [(_ & _ & ->)|(_ & _ & -> & _)]]]; discriminate.
Qed.

Lemma etrans_sec_inv cfg st b st' o :
  c_sec_enabled cfg = true -> sec_inv st -> etrans cfg st b st' o -> sec_inv st'.
Proof.
  intros Hs Hi H. unfold sec_inv, secure_done in *.
  destruct H; cbn [e_phase e_version e_mech closed set_phase set_mech set_partial];
    try match goal with Hp : e_phase st = _ |- _ => rewrite Hp in Hi; rewrite ?Hp end.
  (* closing, or phase, version and mechanism unchanged; ZMTP/2 is refused when a mechanism is configured *)
  all: try (exact I || exact Hi || discriminate || congruence || contradiction).
  (* left: T_mech, T_mech_done, T_produce, T_produce_opaque, T_sec_done, T_token.  Version and completion are among
     the premises; the mechanism is set by negotiate, advanced by m_produce / m_process, or kept: it stays non-NULL *)
  all: try destruct Hi as [Hv Hn]; repeat split; try assumption;
    match goal with
    | Hm : negotiate _ _ = inl _ |- _ => exact (negotiate_not_null _ _ _ Hs Hm)
    | Hp : m_produce _ _ = _ |- _ => exact (produce_not_null _ _ _ _ Hp Hn)
    | Hp : m_process _ _ _ = _ |- _ => exact (process_not_null _ _ _ _ _ Hp Hn)
    end.
Qed.

Lemma etrans_emits cfg st b st' o : etrans cfg st b st' o -> emits o = true -> e_phase st' = PData.
Proof. destruct 1; try destruct (c_server cfg); cbn; intros; try discriminate; auto. Qed.

Definition sd_phase (st : estate) : Prop := e_phase st = PData \/ e_phase st = PClosed.

(* once something was emitted, the engine is in Data or Closed, and later micro-steps keep the mechanism
   and version *)
Lemma etrans_sd_stable cfg st b st' o :
  secure_done st -> sd_phase st -> etrans cfg st b st' o -> secure_done st' /\ sd_phase st'.
Proof.
  intros Hsd Hp H. destruct H; try (exfalso; destruct Hp; congruence); (split; [exact Hsd|unfold sd_phase in *; cbn; tauto]).
Qed.

(* the invariant together with "something was emitted earlier" *)
Definition sec_at (st : estate) (emitted : bool) : Prop :=
  sec_inv st /\ (emitted = true -> secure_done st /\ sd_phase st).

Lemma sec_at_closed st em : sec_at st em -> sec_at (closed st) em.
Proof. intros [_ He]. split; [exact I|]. intros H. destruct (He H). split; [assumption|right; reflexivity]. Qed.

Lemma emits_app a b : emits (a ++ b) = emits a || emits b.
Proof. apply existsb_app. Qed.

Lemma Run_sec cfg st b st' r o :
  c_sec_enabled cfg = true -> Run (estep cfg) st b st' r o -> forall em, sec_at st em -> sec_at st' (em || emits o).
Proof.
  intros Hs. induction 1 as [s b0 Hn | s b0 s1 n o1 s2 r0 o2 Hst HR IH]; intros em [Hi He].
  - rewrite orb_false_r. split; assumption.
  - apply estep_etrans in Hst. rewrite emits_app, orb_assoc. apply IH.
    pose proof (etrans_sec_inv _ _ _ _ _ Hs Hi Hst) as Hi1. split; [exact Hi1|].
    intros H. apply orb_true_iff in H. destruct H as [H|H].
    + destruct (He H). eapply etrans_sd_stable; eauto.
    + pose proof (etrans_emits _ _ _ _ _ Hst H) as Hp. unfold sec_inv in Hi1. rewrite Hp in Hi1.
      split; [exact Hi1|left; exact Hp].
Qed.

Lemma emits_visible o : emits (visible o) = emits o.
Proof. induction o as [|x o IH]; [reflexivity|]. destruct x; cbn; auto. Qed.

Lemma e_input_sec cfg g i em :
  c_sec_enabled cfg = true -> sec_at (g_st g) em ->
  sec_at (g_st (fst (e_input cfg g i))) (em || emits (snd (e_input cfg g i))).
Proof.
  intros Hs Hg. destruct (e_input_cases cfg g i) as [(d & t & ->) | [Hst Ho]].
  - cbn [e_input]. destruct (e_net_Run cfg g d t) as (o & HR & ->). rewrite emits_visible.
    exact (Run_sec _ _ _ _ _ _ Hs HR em Hg).
  - replace (emits (snd (e_input cfg g i))) with false.
    + rewrite orb_false_r. destruct Hst as [-> | ->]; [exact Hg|apply sec_at_closed; exact Hg].
    + symmetry. apply not_true_is_false. intros H. apply existsb_exists in H. destruct H as (x & Hx & H).
      apply Ho in Hx. destruct x; try discriminate; contradiction.
Qed.

Definition any_emits (os : list (list eout)) : bool := existsb emits os.

Lemma e_run_sec cfg : c_sec_enabled cfg = true -> forall is g em, sec_at (g_st g) em ->
  sec_at (g_st (fst (e_run cfg g is))) (em || any_emits (snd (e_run cfg g is))).
Proof.
  intros Hs. induction is as [|i is IH]; intros g em Hg.
  - cbn. rewrite orb_false_r. exact Hg.
  - rewrite e_run_cons. cbn [fst snd any_emits existsb]. rewrite orb_assoc. apply IH, e_input_sec; assumption.
Qed.

Theorem no_bypass cfg is t :
  c_sec_enabled cfg = true ->
  any_emits (snd (e_run cfg (e_new t) is)) = true ->
  secure_done (g_st (fst (e_run cfg (e_new t) is))).
Proof.
  intros Hs He.
  assert (sec_at (g_st (e_new t)) false) as H0 by (split; [cbn|]; discriminate).
  destruct (e_run_sec cfg Hs is (e_new t) false H0) as [_ H]. apply H. exact He.
Qed.

Definition plain_authed (st : estate) : bool :=
  match e_mech st with MPlain true PSSendWelcome | MPlain true PDone => true | _ => false end.

(* the same test on the mechanism alone: that is what negotiate, m_produce and m_process return *)
Definition authed (m : mech) : bool :=
  match m with MPlain true PSSendWelcome | MPlain true PDone => true | _ => false end.

Lemma plain_authed_eq st : plain_authed st = authed (e_mech st).
Proof. reflexivity. Qed.

Definition valid_hello (cfg : ecfg) (tok : bytes) : Prop :=
  exists cl r u p, tok = cl :: r /\ firstn (N.to_nat cl) r = s_HELLO /\
    parse_hello (skipn (N.to_nat cl) r) = Some (u, p) /\
    c_plain_user cfg = Some u /\ c_plain_pass cfg = Some p.

Lemma negotiate_not_authed cfg fld m : negotiate cfg fld = inl m -> authed m = false.
Proof.
  intros H. pose proof (negotiate_cases cfg fld) as C. rewrite H in C.
  destruct C as [[-> _]|[->| ->]]; try destruct (c_server cfg); reflexivity.
Qed.

Lemma produce_authed cfg m m' p : m_produce cfg m = (m', p) -> authed m' = authed m.
Proof. destruct m as [|[] []|[] [] ?]; intros [= <- <-]; reflexivity. Qed.

Lemma process_auth cfg m tok m' e :
  m_process cfg m tok = (m', e) -> authed m = false -> authed m' = true -> valid_hello cfg tok.
Proof.
  intros H. pose proof (process_cases cfg m tok) as C. rewrite H in C.
  destruct m as [|s ps|]; [destruct C as [-> _]; discriminate| |destruct C as [-> _]; discriminate].
  destruct C as [[-> _]|[_ [(_ & _ & ->)|(_ & _ & _ & Hv)]]]; [destruct s; discriminate|discriminate|intros _ _; exact Hv].
Qed.

Theorem plain_auth_only_by_valid_hello cfg st b st' n o :
  estep cfg st b = Step st' n o -> plain_authed st = false -> plain_authed st' = true ->
  exists f k, dec_buffer (c_maxsz cfg) b = DFrame f k /\ valid_hello cfg (f_payload f).
Proof.
  intros H%estep_etrans. rewrite !plain_authed_eq.
  (* most transitions keep the mechanism; it is set by negotiate, advanced by m_produce, or advanced by m_process
     on a decoded frame *)
  destruct H; cbn [e_mech closed set_phase set_mech set_partial]; try congruence;
    match goal with
    | Hn : negotiate _ _ = inl _ |- _ => apply negotiate_not_authed in Hn; congruence
    | Hp : m_produce _ _ = _ |- _ => apply produce_authed in Hp; congruence
    | Hd : dec_buffer _ _ = DFrame ?f ?k |- _ => exists f, k; eauto using process_auth
    end.
Qed.
