(* The heartbeat logic of the engine: the decision rule of on_tick and what follows from it (a PING neither early
   nor late, Timeout only for a PING left unanswered for the timeout), PING -> PONG with the same context, and
   the PONG deadline the session's backstop timer reads. *)
From RZ Require Import Base.Prelude Base.Stepper Model.Codec Proofs.CodecProofs Model.Engine
  Proofs.EngineProofs Proofs.EngineSafety.
Local Open Scope N_scope.

Definition ping_out (cfg : ecfg) : eout :=
  OSend (enc_codec (cmd_frame (ping_body
           (match c_hb_timeout cfg with Some t => N.min (t / 1000000) u16_max | None => 0 end) []))) false.

Definition hb_active (g : engine) : Prop :=
  e_phase (g_st g) = PData /\ e_version (g_st g) <> Some V2.

Definition timed_out (cfg : ecfg) (g : engine) (now : N) : bool :=
  match c_hb_timeout cfg, h_last_ping (g_hb g) with
  | Some t, Some p => h_waiting (g_hb g) && (t <=? now - p)
  | _, _ => false
  end.
Definition ping_due (cfg : ecfg) (g : engine) (now : N) : bool :=
  match c_hb_ivl cfg with
  | Some ivl => negb (h_waiting (g_hb g)) && (ivl <=? now - h_last_activity (g_hb g))
  | None => false
  end.

(* complete decision rule of on_tick *)
Theorem tick_rule cfg g now : hb_active g ->
  e_tick cfg g now =
    if timed_out cfg g now then
      ({| g_st := closed (g_st g); g_acc := g_acc g; g_hb := g_hb g |}, [OErr ETimeout])
    else if ping_due cfg g now then
      ({| g_st := g_st g; g_acc := g_acc g;
          g_hb := {| h_last_activity := h_last_activity (g_hb g); h_last_ping := Some now; h_waiting := true |} |},
       [ping_out cfg])
    else (g, []).
Proof.
  intros [Hp Hv]. unfold e_tick, timed_out, ping_due, ping_out. rewrite Hp.
  destruct (e_version (g_st g)) as [[|]|]; try congruence;
  (destruct (match c_hb_timeout cfg with Some _ => _ | None => _ end); [reflexivity|];
   destruct (c_hb_ivl cfg); [|reflexivity]; destruct (_ && _); reflexivity).
Qed.

Theorem tick_inactive cfg g now : ~ hb_active g -> e_tick cfg g now = (g, []).
Proof.
  unfold hb_active, e_tick. intros H.
  destruct (e_phase (g_st g)) eqn:Ep; try reflexivity.
  destruct (e_version (g_st g)) as [[|]|] eqn:Ev; try reflexivity; exfalso; apply H; split; congruence.
Qed.

Theorem v2_never_pings cfg g now : e_version (g_st g) = Some V2 -> e_tick cfg g now = (g, []).
Proof. intros H. apply tick_inactive. intros [_ Hv]. congruence. Qed.

Lemma timed_out_true cfg g now : timed_out cfg g now = true ->
  exists t p, c_hb_timeout cfg = Some t /\ h_waiting (g_hb g) = true /\ h_last_ping (g_hb g) = Some p /\ t <= now - p.
Proof.
  unfold timed_out. destruct (c_hb_timeout cfg) as [t|]; [|discriminate].
  destruct (h_last_ping (g_hb g)) as [p|]; [|discriminate]. intros H. apply andb_true_iff in H.
  exists t, p. repeat split; [apply H|lia].
Qed.

Lemma ping_due_true cfg g now : ping_due cfg g now = true ->
  exists ivl, c_hb_ivl cfg = Some ivl /\ h_waiting (g_hb g) = false /\ ivl <= now - h_last_activity (g_hb g).
Proof.
  unfold ping_due. destruct (c_hb_ivl cfg) as [ivl|]; [|discriminate]. intros H. apply andb_true_iff in H.
  exists ivl. repeat split; [apply negb_true_iff, H|lia].
Qed.

Lemma tick_cases cfg g now :
  e_tick cfg g now = (g, []) \/
  (timed_out cfg g now = true /\
   e_tick cfg g now = ({| g_st := closed (g_st g); g_acc := g_acc g; g_hb := g_hb g |}, [OErr ETimeout])) \/
  (timed_out cfg g now = false /\ ping_due cfg g now = true /\
   e_tick cfg g now =
     ({| g_st := g_st g; g_acc := g_acc g;
         g_hb := {| h_last_activity := h_last_activity (g_hb g); h_last_ping := Some now; h_waiting := true |} |},
      [ping_out cfg])).
Proof.
  assert (hb_active g \/ ~ hb_active g) as [Ha|Hn].
  { unfold hb_active. destruct (e_phase (g_st g)); try (right; intros [H _]; discriminate).
    destruct (e_version (g_st g)) as [[|]|]; [right; intros [_ H]; congruence | left; split; congruence..]. }
  - rewrite tick_rule by exact Ha. destruct (timed_out cfg g now); [auto|]. destruct (ping_due cfg g now); auto.
  - left. apply tick_inactive. exact Hn.
Qed.

(* a PING is emitted only when idle for at least the interval and none is outstanding *)
Theorem ping_not_early cfg g now x :
  In x (snd (e_tick cfg g now)) -> (exists b z, x = OSend b z) ->
  exists ivl, c_hb_ivl cfg = Some ivl /\ h_waiting (g_hb g) = false /\ ivl <= now - h_last_activity (g_hb g).
Proof.
  intros Hin [b [z ->]]. destruct (tick_cases cfg g now) as [E | [[_ E] | (_ & Hd & _)]].
  - rewrite E in Hin. destruct Hin.
  - rewrite E in Hin. destruct Hin as [H|[]]; discriminate.
  - apply ping_due_true. exact Hd.
Qed.

(* if ticks are at most one interval apart, a PING is out within two intervals of the last activity:
   a tick at `prev` that found the connection not yet idle for a full interval, followed by the next
   tick at most one interval later but at or after the idle deadline, pings - and that is < la + 2 ivl *)
Theorem ping_within_two_ivl cfg g prev now ivl :
  hb_active g -> c_hb_ivl cfg = Some ivl -> h_waiting (g_hb g) = false -> timed_out cfg g now = false ->
  prev < h_last_activity (g_hb g) + ivl -> now <= prev + ivl -> h_last_activity (g_hb g) + ivl <= now ->
  snd (e_tick cfg g now) = [ping_out cfg] /\ now < h_last_activity (g_hb g) + 2 * ivl.
Proof.
  intros Ha Hi Hw Ht Hp Hn Hd. rewrite tick_rule by exact Ha. rewrite Ht.
  unfold ping_due. rewrite Hi, Hw. cbn [negb andb].
  assert (ivl <=? now - h_last_activity (g_hb g) = true) as -> by lia.
  split; [reflexivity|lia].
Qed.

(* no PONG within the timeout of the PING => the next tick closes the connection with Timeout *)
Theorem dead_peer_closed cfg g now t p :
  hb_active g -> c_hb_timeout cfg = Some t -> h_waiting (g_hb g) = true -> h_last_ping (g_hb g) = Some p ->
  p + t <= now ->
  snd (e_tick cfg g now) = [OErr ETimeout] /\ e_phase (g_st (fst (e_tick cfg g now))) = PClosed.
Proof.
  intros Ha Ht Hw Hp Hd. rewrite tick_rule by exact Ha. unfold timed_out. rewrite Ht, Hp, Hw. cbn [andb].
  assert (t <=? now - p = true) as -> by lia. split; reflexivity.
Qed.

(* the heartbeat logic closes a connection ONLY when a PING has been outstanding for the timeout *)
Theorem timeout_only_when_unanswered cfg g now :
  In (OErr ETimeout) (snd (e_tick cfg g now)) ->
  exists t p, c_hb_timeout cfg = Some t /\ h_waiting (g_hb g) = true /\ h_last_ping (g_hb g) = Some p /\ t <= now - p.
Proof.
  intros Hin. destruct (tick_cases cfg g now) as [E | [[Ht _] | (_ & _ & E)]].
  - rewrite E in Hin. destruct Hin.
  - apply timed_out_true. exact Ht.
  - rewrite E in Hin. destruct Hin as [H|[]]. discriminate.
Qed.

Definition no_to (o : list eout) : Prop := ~ In (OErr ETimeout) o.

(* network input never produces a Timeout error (only on_tick does) *)
Lemma e_net_no_timeout cfg g d t : no_to (snd (e_net cfg g d t)).
Proof. intros H. exact (proj1 (proj2 (e_net_out _ _ _ _ _ H)) eq_refl). Qed.

(* live peer: a run in which no tick finds a PING outstanding for the timeout never closes the
   connection through the heartbeat logic *)
Fixpoint answered_run (cfg : ecfg) (g : engine) (is : list einput) : bool :=
  match is with
  | [] => true
  | i :: rest =>
      (match i with ITick now => negb (timed_out cfg g now) | _ => true end)
      && answered_run cfg (fst (e_input cfg g i)) rest
  end.

Theorem live_peer_safe cfg : forall is g,
  answered_run cfg g is = true -> Forall no_to (snd (e_run cfg g is)).
Proof.
  induction is as [|i is IH]; intros g H; [constructor|].
  cbn [answered_run] in H. apply andb_true_iff in H. destruct H as [Hi Hr].
  rewrite e_run_cons. specialize (IH (fst (e_input cfg g i)) Hr).
  assert (no_to (snd (e_input cfg g i))) as Ho.
  { intros Hin. destruct i as [d t|m|t| |w]; cbn [e_input] in Hin.
    - exact (e_net_no_timeout _ _ _ _ Hin).
    - unfold e_app in Hin. destruct (e_phase (g_st g)); cbn in Hin; intuition discriminate.
    - apply negb_true_iff in Hi. destruct (tick_cases cfg g t) as [E | [[Ht _] | (_ & _ & E)]]; [|congruence|];
        rewrite E in Hin; cbn in Hin; intuition discriminate.
    - cbn in Hin. intuition discriminate.
    - destruct Hin. }
  constructor; assumption.
Qed.

Lemma starts_with_app p r : starts_with p (p ++ r) = true.
Proof. induction p as [|x p IH]; [destruct r; reflexivity|]. cbn. rewrite N.eqb_refl, IH. reflexivity. Qed.

Lemma parse_ping ttl ctx : parse_cmd (cmd_frame (ping_body ttl ctx)) = CPing ctx.
Proof.
  unfold parse_cmd, cmd_frame, ping_body. cbn [f_cmd f_more f_payload negb orb].
  rewrite (starts_with_app (4 :: s_PING)).
  assert (length ((4 :: s_PING) ++ be_bytes 2 (ttl mod 65536)) = 7%nat) as H7.
  { rewrite app_length, be_bytes_length. reflexivity. }
  rewrite app_assoc, app_length, H7.
  replace (7 <=? 7 + length ctx)%nat with true by (symmetry; apply Nat.leb_le; lia).
  cbn [andb]. f_equal.
Qed.

Lemma parse_pong ctx : parse_cmd (cmd_frame (pong_body ctx)) = CPong ctx.
Proof.
  unfold parse_cmd, cmd_frame, pong_body. cbn [f_cmd f_more f_payload negb orb].
  assert (starts_with (4 :: s_PING) ((4 :: s_PONG) ++ ctx) = false) as -> by reflexivity.
  cbn [andb]. rewrite (starts_with_app (4 :: s_PONG)).
  rewrite app_length. replace (5 <=? length ((4 :: s_PONG)%N) + length ctx)%nat with true by reflexivity.
  cbn [andb]. reflexivity.
Qed.

(* one encoded command frame at the front of the buffer, on ZMTP/3 *)
Lemma cmd_frame_step cfg st body rest :
  e_phase st = PData -> e_version st <> Some V2 -> admitted (c_maxsz cfg) (cmd_frame body) ->
  estep cfg st (enc_codec (cmd_frame body) ++ rest) =
  let n := length (enc_codec (cmd_frame body)) in
  match parse_cmd (cmd_frame body) with
  | CPing ctx => Step st n [OActivity; OSend (enc_codec (cmd_frame (pong_body ctx))) false]
  | CPong _ => Step st n [OActivity; OPongSeen]
  | CError => Step (closed st) n [OActivity; OErr EProto]
  | _ => Step st n [OActivity]
  end.
Proof.
  intros Hp Hv Ha. unfold estep. rewrite Hp, dec_buffer_enc by exact Ha.
  change (f_cmd (cmd_frame body)) with true. cbn iota.
  destruct (e_version st) as [[|]|]; try congruence; reflexivity.
Qed.

Theorem pong_echoes_context cfg st ttl ctx rest :
  e_phase st = PData -> e_version st <> Some V2 ->
  admitted (c_maxsz cfg) (cmd_frame (ping_body ttl ctx)) ->
  estep cfg st (enc_codec (cmd_frame (ping_body ttl ctx)) ++ rest) =
  Step st (length (enc_codec (cmd_frame (ping_body ttl ctx))))
       [OActivity; OSend (enc_codec (cmd_frame (pong_body ctx))) false].
Proof.
  intros Hp Hv Ha. rewrite cmd_frame_step, parse_ping by assumption. reflexivity.
Qed.

(* a PING command too short to carry a TTL is not answered (and does no harm) *)
Theorem malformed_ping_ignored cfg st short rest :
  e_phase st = PData -> e_version st <> Some V2 -> (length short < 2)%nat ->
  admitted (c_maxsz cfg) (cmd_frame ((4 :: s_PING) ++ short)) ->
  estep cfg st (enc_codec (cmd_frame ((4 :: s_PING) ++ short)) ++ rest) =
  Step st (length (enc_codec (cmd_frame ((4 :: s_PING) ++ short)))) [OActivity].
Proof.
  intros Hp Hv Hl Ha. rewrite cmd_frame_step by assumption.
  assert (parse_cmd (cmd_frame ((4 :: s_PING) ++ short)) = CUnknown) as ->; [|reflexivity].
  unfold parse_cmd, cmd_frame. cbn [f_cmd f_more f_payload negb orb].
  rewrite (starts_with_app (4 :: s_PING)).
  destruct short as [|a [|b0 t]]; cbn in Hl; try lia; reflexivity.
Qed.

(* the session's backstop timer: PING time + timeout, whatever the activity stamp says *)
Theorem pong_deadline_from_ping cfg g p :
  h_waiting (g_hb g) = true -> h_last_ping (g_hb g) = Some p ->
  e_pong_deadline cfg g = Some (p + match c_hb_timeout cfg with Some t => t | None => 30000000000 end).
Proof. unfold e_pong_deadline. intros -> ->. reflexivity. Qed.
Theorem pong_deadline_none_when_not_waiting cfg g :
  h_waiting (g_hb g) = false -> e_pong_deadline cfg g = None.
Proof. unfold e_pong_deadline. intros ->. reflexivity. Qed.

(* a run in which the PING stays unanswered: no PONG is parsed, no tick reaches the deadline, nobody closes *)
Definition unanswered_input (cfg : ecfg) (g : engine) (i : einput) : bool :=
  match i with
  | INet d _ => let '(_, _, o) := pump (estep cfg) emu EMU_MAX (g_st g) (g_acc g ++ d) in negb (has_pong o)
  | ITick now => negb (timed_out cfg g now)
  | IClose => false
  | IApp _ | IWrote _ => true
  end.
Fixpoint unanswered_run (cfg : ecfg) (g : engine) (is : list einput) : bool :=
  match is with
  | [] => true
  | i :: rest => unanswered_input cfg g i && unanswered_run cfg (fst (e_input cfg g i)) rest
  end.

Lemma unanswered_keeps_ping cfg g i p :
  h_waiting (g_hb g) = true -> h_last_ping (g_hb g) = Some p -> unanswered_input cfg g i = true ->
  h_waiting (g_hb (fst (e_input cfg g i))) = true /\ h_last_ping (g_hb (fst (e_input cfg g i))) = Some p.
Proof.
  intros Hw Hp Hu. destruct i as [d t|m|t| |w]; cbn [e_input unanswered_input] in *.
  - unfold e_net. destruct (pump (estep cfg) emu EMU_MAX (g_st g) (g_acc g ++ d)) as [[st' r] o].
    cbn [fst g_hb h_waiting h_last_ping]. apply negb_true_iff in Hu. rewrite Hu. split; assumption.
  - unfold e_app. destruct (e_phase (g_st g)); cbn [fst]; split; assumption.
  - apply negb_true_iff in Hu. destruct (tick_cases cfg g t) as [-> | [[Ht _] | (_ & Hd & _)]]; [auto|congruence|].
    apply ping_due_true in Hd. destruct Hd as (_ & _ & Hw' & _). congruence.
  - discriminate.
  - cbn. split; assumption.
Qed.
