(* The receiving engine and over-long messages: a message of 256 or more frames is answered with a protocol
   error (PeerError) at its 256th frame; nothing of it is ever delivered, however the bytes are cut. *)
From RZ Require Import Base.Prelude Base.Stepper Model.Codec Proofs.CodecProofs Model.Engine Proofs.EngineProofs.
Local Open Scope N_scope.

(* 255 frames with MORE are absorbed into partial_batch, the next data frame (MORE or not) is refused *)
Lemma run_overlong cfg st init f tail :
  e_phase st = PData -> e_partial st = [] ->
  length init = MAX_FRAMES -> Forall (more_data cfg) init -> data_ok cfg f ->
  Run (estep cfg) st (concat (map enc_codec (init ++ [f])) ++ tail)
      (closed (set_partial st init)) tail
      (concat (map (fun _ => [OActivity]) init) ++ [OActivity; OErr EProto]).
Proof.
  intros Hph Hp Hlen Hall Hf.
  (* init = front ++ [l]: run_frames_more covers the first 254, l fills the batch, f finds it full *)
  destruct (@exists_last _ init) as (front & l & ->); [intros ->; discriminate|].
  rewrite app_length in Hlen. cbn [length] in Hlen.
  apply Forall_app in Hall as [Hfront Hl]. apply Forall_inv in Hl as [Hlm Hld].
  rewrite !map_app, !concat_app. cbn [map concat]. rewrite !app_nil_r, <- !app_assoc.
  apply run_frames_more; auto; rewrite Hp; cbn [app length]; [lia|].
  eapply (RunStep_app [OActivity]).
  { rewrite data_frame_step, Hlm by assumption. cbn [set_partial e_partial].
    destruct (MAX_FRAMES <=? length front)%nat eqn:E; [lia|]. reflexivity. }
  eapply (RunStep_app [OActivity; OErr EProto]).
  { rewrite data_frame_step by assumption. cbn [set_partial e_partial]. rewrite app_length. cbn [length].
    destruct (MAX_FRAMES <=? length front + 1)%nat eqn:E; [reflexivity|lia]. }
  apply RunNeed. reflexivity.
Qed.

(* complete messages `ms` followed by an over-long one: the complete ones are delivered, then PeerError;
   no batch containing a frame of the over-long message is delivered, the engine is closed *)
Theorem data_phase_refuses_overlong cfg g ms init f tail cs :
  e_phase (g_st g) = PData -> e_partial (g_st g) = [] -> g_acc g = [] ->
  Forall (wf_msg cfg) ms ->
  length init = MAX_FRAMES -> Forall (more_data cfg) init -> data_ok cfg f ->
  concat (map fst cs) = concat (map enc_codec (concat ms)) ++ concat (map enc_codec (init ++ [f])) ++ tail ->
  let '(g', o) := nets cfg g cs in
  o = map ODeliver ms ++ [OErr EProto] /\ e_phase (g_st g') = PClosed.
Proof.
  intros Hph Hp Hacc Hms Hlen Hall Hf Hc.
  pose proof (run_messages cfg _ ms _ _ _ _ Hph Hp Hms (run_overlong cfg _ init f tail Hph Hp Hlen Hall Hf)) as HR.
  rewrite <- Hc in HR. apply (nets_data_Run cfg g cs _ _ _ Hph Hacc) in HR.
  destruct (nets cfg g cs) as [g' o]. destruct HR as (-> & _ & ->). split; [|reflexivity].
  rewrite !visible_app, visible_acts, visible_acts_only. reflexivity.
Qed.
