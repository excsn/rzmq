(* Proofs about try_route_sync / route_message (Model/Route.v). *)
From RZ Require Import Base.Prelude Model.Balancer Model.Route Proofs.BalancerProofs.

Definition all_full (l : list att) : Prop := Forall (fun a => at_res a = Full) l.
Definition all_fast (l : list att) : Prop := Forall (fun a => at_slow a = false) l.

(* what a call did with the message, read off the log of send calls it made *)
Definition one_spec (r : rres) : Prop :=
  match r_out r with
  | Delivered p => exists pre tk, r_log r = pre ++ [mkAtt tk p false Accept] /\ all_full pre /\ all_fast pre
  | DeliveredSlow p => exists pre tk, r_log r = pre ++ [mkAtt tk p true Accept] /\ all_full pre /\ all_fast pre
  | Returned | WaitForPeer => all_full (r_log r)
  | ReturnedErr p | Dropped p => exists pre tk s, r_log r = pre ++ [mkAtt tk p s Closed] /\ all_full pre
  end.

(* every logged answer is the oracle's answer for that attempt number and peer; attempt numbers are consecutive *)
Fixpoint faithful (o : oracle) (t : nat) (log : list att) : Prop :=
  match log with
  | [] => True
  | a :: l => at_t a = t /\ at_res a = (if at_slow a then o_slow o else o_fast o) t (at_peer a) /\ faithful o (S t) l
  end.

Definition good (b : bal) : Prop := inv b /\ NoDup (peers b).

(* what the peer q answers when its turn comes decides the call *)
Definition fast_outcome (sync : bool) (r : ready) (q : N) : outcome :=
  match r with Accept => Delivered q | Closed => if sync then ReturnedErr q else Dropped q | Full => Returned end.

(* The two loops as one.  Both loops ask one peer after the other while the answer is Full.  They differ in what is reported when
   there is no peer or a peer is closed (sync, wait), in how many peers are asked, and in what follows the
   last Full: `sync_loop o k` is k attempts and then Returned, `msg_loop o w more` is S more attempts and
   then the blocking send. *)
Section Sweep.
Variables (o : oracle) (sync wait : bool).

Definition attempt (cont : bal -> nat -> list att -> rres) (b : bal) (t : nat) (log : list att) : rres :=
  match get_next b with
  | (None, b') => mkRes (if wait then WaitForPeer else Returned) log b' t
  | (Some p, b') =>
      let r := o_fast o t p in
      let b'' := apply_mops (o_env o t) b' in
      let log' := log ++ [mkAtt t p false r] in
      match r with
      | Full => cont b'' (S t) log'
      | _ => mkRes (fast_outcome sync r p) log' b'' (S t)
      end
  end.

Fixpoint sweep (k : nat) (fin : bal -> nat -> list att -> rres) : bal -> nat -> list att -> rres :=
  match k with 0 => fin | S k' => attempt (sweep k' fin) end.
End Sweep.

Definition sync_ret (b : bal) (t : nat) (log : list att) : rres := mkRes Returned log b t.

Definition slow_send (o : oracle) (b : bal) (t : nat) (log : list att) : rres :=
  match get_next b with
  | (None, b') => mkRes Returned log b' t
  | (Some q, b') =>
      let r := o_slow o t q in
      mkRes (match r with Accept => DeliveredSlow q | Full => Returned | Closed => Dropped q end)
            (log ++ [mkAtt t q true r]) (apply_mops (o_env o t) b') (S t)
  end.

Lemma sync_loop_sweep o k : forall b t log, sync_loop o k b t log = sweep o true false k sync_ret b t log.
Proof.
  induction k as [|k IH]; intros b t log; [reflexivity|]. simpl. unfold attempt.
  destruct (get_next b) as [[p|] b']; [|reflexivity]. destruct (o_fast o t p); [reflexivity|apply IH|reflexivity].
Qed.

Lemma msg_loop_sweep o w more : forall b t log,
  msg_loop o w more b t log = sweep o false w (S more) (slow_send o) b t log.
Proof.
  induction more as [|more IH]; intros b t log; simpl; unfold attempt;
    (destruct (get_next b) as [[p|] b']; [|reflexivity]); destruct (o_fast o t p); try reflexivity.
  apply IH.
Qed.

Lemma try_route_sync_sweep cnt o b t : try_route_sync_with cnt o b t = sweep o true false cnt sync_ret b t [].
Proof. unfold try_route_sync_with. destruct cnt; [reflexivity|apply sync_loop_sweep]. Qed.

Lemma route_message_sweep cnt o w b t :
  route_message_with cnt o w b t = sweep o false w (Nat.max cnt 1) (slow_send o) b t [].
Proof.
  unfold route_message_with. rewrite msg_loop_sweep.
  replace (S (Nat.max cnt 1 - 1)) with (Nat.max cnt 1) by lia. reflexivity.
Qed.

Lemma faithful_app o l1 : forall t l2,
  faithful o t (l1 ++ l2) <-> faithful o t l1 /\ faithful o (t + length l1) l2.
Proof.
  induction l1 as [|a l1 IH]; intros t l2; simpl.
  - rewrite Nat.add_0_r. tauto.
  - rewrite IH. replace (S t + length l1) with (t + S (length l1)) by lia. tauto.
Qed.

Lemma faithful_last o t pre a : faithful o t (pre ++ [a]) ->
  at_res a = (if at_slow a then o_slow o else o_fast o) (t + length pre) (at_peer a).
Proof. intros H. apply faithful_app in H. destruct H as [_ H]. simpl in H. tauto. Qed.

Lemma Forall_snoc {A} (P : A -> Prop) l a : Forall P l -> P a -> Forall P (l ++ [a]).
Proof. intros H1 H2. apply Forall_app. split; [exact H1|]. constructor; [exact H2|constructor]. Qed.

(* the log and the clock of a result continue those the call started with *)
Definition timed (o : oracle) (t0 : nat) (r : rres) : Prop :=
  faithful o t0 (r_log r) /\ r_time r = t0 + length (r_log r).

Lemma timed_snoc o t0 log p s out b : faithful o t0 log ->
  let t := t0 + length log in
  timed o t0 (mkRes out (log ++ [mkAtt t p s ((if s then o_slow o else o_fast o) t p)]) b (S t)).
Proof.
  intros Hf. split; simpl.
  - apply faithful_app. simpl. tauto.
  - rewrite app_length. simpl. lia.
Qed.

Section SweepFacts.
Variables (o : oracle) (sync wait : bool) (fin : bal -> nat -> list att -> rres).

Lemma sweep_one k :
  (forall b t log, all_full log -> all_fast log -> one_spec (fin b t log)) ->
  forall b t log, all_full log -> all_fast log -> one_spec (sweep o sync wait k fin b t log).
Proof.
  intros Hfin. induction k as [|k IH]; [exact Hfin|]. intros b t log Hf Hs. simpl. unfold attempt.
  destruct (get_next b) as [[p|] b']; [|destruct wait; exact Hf].
  destruct (o_fast o t p) eqn:E.
  - exists log, t. tauto.
  - apply IH; apply Forall_snoc; auto.
  - destruct sync; exists log, t, false; tauto.
Qed.

Lemma sweep_timed t0 k :
  (forall b t log, faithful o t0 log -> t = t0 + length log -> timed o t0 (fin b t log)) ->
  forall b t log, faithful o t0 log -> t = t0 + length log -> timed o t0 (sweep o sync wait k fin b t log).
Proof.
  intros Hfin. induction k as [|k IH]; [exact Hfin|]. intros b t log Hf ->. simpl. unfold attempt.
  destruct (get_next b) as [[p|] b']; [|split; [exact Hf|reflexivity]].
  pose proof (timed_snoc o t0 log p false) as Hs. cbv zeta in Hs.
  destruct (o_fast o (t0 + length log) p); [apply Hs, Hf| |apply Hs, Hf].
  apply IH; apply (Hs Returned b Hf).
Qed.

(* either the loop ends within its k attempts, or it reaches `fin` after exactly k Full answers *)
Lemma sweep_budget k : forall b t log, all_fast log -> all_full log ->
  let r := sweep o sync wait k fin b t log in
  (all_fast (r_log r) /\ length (r_log r) <= length log + k) \/
  (exists b' t' log', r = fin b' t' log' /\ all_fast log' /\ all_full log' /\ length log' = length log + k).
Proof.
  induction k as [|k IH]; intros b t log Hs Hf; simpl.
  - right. exists b, t, log. auto.
  - unfold attempt. destruct (get_next b) as [[p|] b']; [|left; split; [exact Hs|apply Nat.le_add_r]].
    pose proof (Forall_snoc _ log (mkAtt t p false (o_fast o t p)) Hs eq_refl) as Hs'.
    destruct (o_fast o t p) eqn:E;
      try (left; split; [exact Hs'|]; simpl; rewrite app_length; apply Nat.add_le_mono_l, le_n_S, Nat.le_0_l).
    specialize (IH (apply_mops (o_env o t) b') (S t) _ Hs' (Forall_snoc _ log (mkAtt t p false Full) Hf eq_refl)).
    cbv zeta in IH. rewrite app_length, <- Nat.add_assoc in IH. exact IH.
Qed.
End SweepFacts.

(* a property of the balancer that get_next and the other tasks' changes keep is kept by every call *)
Section BalanceKept.
Variables (o : oracle) (Q : bal -> Prop).
Hypothesis Hnext : forall b, Q b -> Q (snd (get_next b)).
Hypothesis Henv : forall t b, Q b -> Q (apply_mops (o_env o t) b).

Lemma sweep_bal sync wait fin k : (forall b t log, Q b -> Q (r_bal (fin b t log))) ->
  forall b t log, Q b -> Q (r_bal (sweep o sync wait k fin b t log)).
Proof.
  intros Hfin. induction k as [|k IH]; [exact Hfin|]. intros b t log Hb. simpl. unfold attempt.
  apply Hnext in Hb. destruct (get_next b) as [[p|] b']; [|exact Hb].
  apply (Henv t) in Hb. destruct (o_fast o t p); [exact Hb|apply IH; exact Hb|exact Hb].
Qed.

Lemma route_bal cnt w b t : Q b ->
  Q (r_bal (try_route_sync_with cnt o b t)) /\ Q (r_bal (route_message_with cnt o w b t)).
Proof.
  intros Hb. rewrite try_route_sync_sweep, route_message_sweep. split; apply sweep_bal; auto.
  intros b1 t1 log Hb1. unfold slow_send. apply Hnext in Hb1. destruct (get_next b1) as [[q|] b2]; [|exact Hb1].
  apply Henv. exact Hb1.
Qed.
End BalanceKept.

Lemma slow_send_one o b t log : all_full log -> all_fast log -> one_spec (slow_send o b t log).
Proof.
  intros Hf Hs. unfold slow_send. destruct (get_next b) as [[q|] b']; [|exact Hf].
  unfold one_spec. simpl. destruct (o_slow o t q).
  - exists log, t. tauto.
  - apply Forall_snoc; auto.
  - exists log, t, true. tauto.
Qed.

Lemma slow_send_timed o t0 b t log : faithful o t0 log -> t = t0 + length log -> timed o t0 (slow_send o b t log).
Proof.
  intros Hf ->. unfold slow_send. destruct (get_next b) as [[q|] b']; [|split; [exact Hf|reflexivity]].
  apply (timed_snoc o t0 log q true), Hf.
Qed.

Theorem route_message_one cnt o w b t : one_spec (route_message_with cnt o w b t).
Proof.
  rewrite route_message_sweep. apply sweep_one; [apply slow_send_one|constructor|constructor].
Qed.

Lemma accepts_app l1 l2 : accepts (l1 ++ l2) = accepts l1 + accepts l2.
Proof. unfold accepts. rewrite filter_app, app_length. reflexivity. Qed.

Lemma all_full_accepts l : all_full l -> accepts l = 0.
Proof.
  unfold accepts. induction 1 as [|a l Ha _ IH]; [reflexivity|]. simpl. unfold is_accept at 1. rewrite Ha. exact IH.
Qed.

(* the number of peers whose send returned Ok(()) is 1 if the call reported success and 0 otherwise *)
Theorem one_spec_accepts r : one_spec r ->
  accepts (r_log r) = match r_out r with Delivered _ | DeliveredSlow _ => 1 | _ => 0 end.
Proof.
  unfold one_spec. destruct (r_out r).
  1,2: intros (pre & tk & -> & Hf & _); rewrite accepts_app, all_full_accepts by exact Hf; reflexivity.
  1,4: apply all_full_accepts.
  1,2: intros (pre & tk & s & -> & Hf); rewrite accepts_app, all_full_accepts by exact Hf; reflexivity.
Qed.

Lemma apply_mops_good ops : forall b, good b -> good (apply_mops ops b).
Proof.
  apply (fold_left_inv apply_mop good).
  intros b [u|u] [H1 H2]; split; [apply add_inv|apply add_nodup|apply remove_inv|apply remove_nodup]; assumption.
Qed.

Lemma get_next_good b : good b -> good (snd (get_next b)).
Proof. intros [H1 H2]. split; [apply get_next_inv; exact H1|rewrite get_next_peers; exact H2]. Qed.

Section NoEnv.
Variable o : oracle.
Hypothesis Henv : forall t, o_env o t = [].

(* the peers of l, asked in this order starting at attempt t, all answer Full *)
Fixpoint all_full_at (t : nat) (l : list N) : Prop :=
  match l with [] => True | q :: l' => o_fast o t q = Full /\ all_full_at (S t) l' end.
Fixpoint full_atts (t : nat) (l : list N) : list att :=
  match l with [] => [] | q :: l' => mkAtt t q false Full :: full_atts (S t) l' end.

Lemma full_atts_length t l : length (full_atts t l) = length l.
Proof. revert t. induction l; intros; simpl; auto. Qed.

Lemma full_atts_fast t l : all_fast (full_atts t l).
Proof. unfold all_fast. revert t. induction l; intros; simpl; constructor; auto. Qed.

(* while the answers are Full the loop follows `picks` *)
Lemma sweep_picks sync wait fin m : forall k b t log l b', picks m b = (l, b') -> length l = m -> all_full_at t l ->
  sweep o sync wait (m + k) fin b t log = sweep o sync wait k fin b' (t + m) (log ++ full_atts t l).
Proof.
  induction m as [|m IH]; intros k b t log l b' Hpk Hl Hf.
  - inversion Hpk. simpl. rewrite Nat.add_0_r, app_nil_r. reflexivity.
  - cbn [picks] in Hpk. cbn [Nat.add sweep]. unfold attempt.
    destruct (get_next b) as [[p|] b1]; [|inversion Hpk; subst; discriminate].
    destruct (picks m b1) as [l1 b2] eqn:E. inversion Hpk. subst l b2. destruct Hf as [Hp Hf].
    injection Hl as Hl. rewrite Hp, Henv. cbn [apply_mops fold_left]. rewrite (IH k b1 (S t) _ l1 b' E Hl Hf).
    replace (S t + m) with (t + S m) by lia. simpl. rewrite <- app_assoc. reflexivity.
Qed.

Lemma attempt_stops sync wait cont b t log q b' : get_next b = (Some q, b') -> o_fast o t q <> Full ->
  attempt o sync wait cont b t log =
  mkRes (fast_outcome sync (o_fast o t q) q) (log ++ [mkAtt t q false (o_fast o t q)]) b' (S t).
Proof.
  intros Hg Hq. unfold attempt. rewrite Hg, Henv. destruct (o_fast o t q); [reflexivity|congruence|reflexivity].
Qed.

(* route_skips_full, exact form: the sweep asks the peers in view order and stops at the first one
   that does not answer Full; outcome, log, attempt count and next cursor are determined *)
Theorem sweep_stops_at_first_nonfull w b t pre q post :
  inv b -> view b = pre ++ q :: post -> all_full_at t pre -> o_fast o (t + length pre) q <> Full ->
  let ans := o_fast o (t + length pre) q in
  let log := full_atts t pre ++ [mkAtt (t + length pre) q false ans] in
  let b' := snd (picks (S (length pre)) b) in
  inv b' /\ peers b' = peers b /\ view b' = post ++ pre ++ [q] /\
  try_route_sync o b t = mkRes (fast_outcome true ans q) log b' (S (t + length pre)) /\
  route_message o w b t = mkRes (fast_outcome false ans q) log b' (S (t + length pre)).
Proof.
  intros Hi Hv Hf Hq. cbv zeta.
  assert (Hc : count b = length pre + S (length post)) by (unfold count; rewrite <- view_length, Hv, app_length; reflexivity).
  destruct (picks_view pre (q :: post) b Hi Hv) as (b1 & Hpk & Hi1 & Hp1 & Hv1).
  destruct (get_next_view b1 q (post ++ pre) Hi1 Hv1) as (b2 & Hg & Hp2 & Hi2 & Hv2 & _).
  assert (Hb : snd (picks (S (length pre)) b) = b2).
  { rewrite <- Nat.add_1_r, picks_app, Hpk. cbn [picks]. rewrite Hg. reflexivity. }
  rewrite Hb, <- app_assoc in *. repeat split; [exact Hi2 | congruence | exact Hv2 | |].
  - unfold try_route_sync. rewrite try_route_sync_sweep, Hc.
    rewrite sweep_picks with (l := pre) (b' := b1) by auto. apply attempt_stops; assumption.
  - unfold route_message. rewrite route_message_sweep, Hc, Nat.max_l by lia.
    rewrite sweep_picks with (l := pre) (b' := b1) by auto. apply attempt_stops; assumption.
Qed.

(* the form asked for: some peer has room when its turn comes => delivered during the sweep, to the
   first such peer, by both entry points, without the blocking send *)
Theorem route_skips_full w b t pre q post :
  inv b -> view b = pre ++ q :: post -> all_full_at t pre -> o_fast o (t + length pre) q = Accept ->
  r_out (try_route_sync o b t) = Delivered q /\ r_out (route_message o w b t) = Delivered q /\
  all_fast (r_log (route_message o w b t)).
Proof.
  intros Hi Hv Hf Hq.
  destruct (sweep_stops_at_first_nonfull w b t pre q post Hi Hv Hf) as (_ & _ & _ & -> & ->); [congruence|].
  rewrite Hq. simpl. repeat split. apply Forall_snoc; [apply full_atts_fast|reflexivity].
Qed.

Lemma sweep_pass sync wait fin k b t : inv b -> all_full_at t (view b) ->
  sweep o sync wait (count b + k) fin b t [] = sweep o sync wait k fin b (t + count b) (full_atts t (view b)).
Proof.
  intros Hi Hf. apply (sweep_picks _ _ _ _ _ _ _ [] _ _ (picks_pass b Hi)); [apply view_length|exact Hf].
Qed.
End NoEnv.

Lemma first_nonfull o pre : forall t,
  all_full_at o t pre \/
  exists pre1 q pre2, pre = pre1 ++ q :: pre2 /\ all_full_at o t pre1 /\ o_fast o (t + length pre1) q <> Full.
Proof.
  induction pre as [|a pre IH]; intros t; simpl; [tauto|].
  destruct (o_fast o t a) eqn:E.
  1,3: right; exists [], a, pre; simpl; rewrite Nat.add_0_r, E; repeat split; congruence.
  destruct (IH (S t)) as [H|(pre1 & q & pre2 & -> & H1 & H2)]; [left; tauto|].
  right. exists (a :: pre1), q, pre2. simpl. replace (t + S (length pre1)) with (S t + length pre1) by lia. tauto.
Qed.

Lemma run_calls_length o cs : forall b t, length (run_calls o cs b t) = length cs.
Proof. induction cs; intros; simpl; auto. Qed.

Section Starvation.
Variable o : oracle.
Hypothesis Henv : forall t, o_env o t = [].
Variable p : N.
Hypothesis Hp : forall t, o_fast o t p = Accept.

(* one routed message either goes to p or moves the cursor strictly closer to p *)
Lemma call_progress c b t pre post : inv b -> view b = pre ++ p :: post ->
  let r := do_call o c b t in
  r_out r = Delivered p \/
  exists pre' post', inv (r_bal r) /\ view (r_bal r) = pre' ++ p :: post' /\ length pre' < length pre.
Proof.
  intros Hi Hv. pose proof (sweep_stops_at_first_nonfull o Henv (match c with CMsg w => w | CSync => false end) b t) as Hs.
  destruct (first_nonfull o pre t) as [Hf|(pre1 & q & pre2 & -> & Hf & Hq)].
  - assert (Ha : o_fast o (t + length pre) p <> Full) by (rewrite Hp; discriminate).
    destruct (Hs pre p post Hi Hv Hf Ha) as (_ & _ & _ & H4 & H5).
    rewrite Hp in H4, H5. left. destruct c; simpl; [rewrite H4|rewrite H5]; reflexivity.
  - rewrite <- app_assoc in Hv.
    destruct (Hs pre1 q _ Hi Hv Hf Hq) as (H1 & _ & H3 & H4 & H5).
    right. exists pre2, (post ++ pre1 ++ [q]). rewrite <- app_assoc in H3.
    replace (r_bal (do_call o c b t)) with (snd (picks (S (length pre1)) b))
      by (destruct c; simpl; [rewrite H4|rewrite H5]; reflexivity).
    split; [exact H1|]. split; [exact H3|]. rewrite app_length. simpl. lia.
Qed.

Lemma starvation_aux c2 cs : forall pre post b t, inv b -> view b = pre ++ p :: post -> length pre < length cs ->
  exists r, In r (firstn (length cs) (run_calls o (cs ++ c2) b t)) /\ r_out r = Delivered p.
Proof.
  induction cs as [|c cs IH]; intros pre post b t Hi Hv Hd; simpl in Hd; [lia|]. simpl.
  destruct (call_progress c b t pre post Hi Hv) as [Hdel|(pre' & post' & Hi' & Hv' & Hlt)].
  - eexists. split; [left; reflexivity|exact Hdel].
  - destruct (IH pre' post' _ (r_time (do_call o c b t)) Hi' Hv') as (r & Hin & Hr); [lia|].
    exists r. split; [right; exact Hin|exact Hr].
Qed.

Lemma do_call_keeps c b t : inv b ->
  inv (r_bal (do_call o c b t)) /\ peers (r_bal (do_call o c b t)) = peers b.
Proof.
  intros Hi. pose (Q := fun b' => inv b' /\ peers b' = peers b).
  assert (H : forall w, Q (r_bal (try_route_sync o b t)) /\ Q (r_bal (route_message o w b t))).
  { intros w. apply route_bal; [| |split; auto].
    - intros b' [H1 H2]. split; [apply get_next_inv; exact H1|rewrite get_next_peers; exact H2].
    - intros t' b' H. rewrite Henv. exact H. }
  destruct c as [|w]; apply (H false) || apply (H w).
Qed.

(* route_no_starvation: with a fixed membership of n peers and no interference, a peer that accepts
   whenever it is asked receives at least one of any n consecutive routed messages (whatever mix of
   try_route_sync / route_message, whatever the other peers answer) *)
Theorem route_no_starvation c1 win c2 b t : inv b -> In p (peers b) ->
  length win = length (peers b) ->
  exists r, In r (firstn (length win) (skipn (length c1) (run_calls o (c1 ++ win ++ c2) b t))) /\
            r_out r = Delivered p.
Proof.
  revert b t. induction c1 as [|c c1 IH]; intros b t Hi Hin Hw; simpl.
  - rewrite <- (rot_in (next_idx b)) in Hin. destruct (in_split _ _ Hin) as (pre & post & Hv).
    apply (starvation_aux c2 win pre post); auto.
    rewrite Hw, <- view_length. unfold view. rewrite Hv, app_length. simpl. lia.
  - destruct (do_call_keeps c b t Hi) as [Hi' Hp']. apply IH; [exact Hi'|rewrite Hp'; exact Hin|congruence].
Qed.
End Starvation.

(* the blocking send waits on ONE peer: peer 1 has room at every moment after the sweep, yet the
   message is dropped when peer 0 (the fresh peer) times out *)
Lemma route_waits_on_any_refuted :
  exists o b, (forall t, o_env o t = []) /\ inv b /\ peers b = [0; 1]%N /\
    (forall t, 2 <= t -> o_fast o t 1%N = Accept /\ o_slow o t 1%N = Accept) /\
    r_out (route_message o false b 0) = Dropped 0%N.
Proof.
  exists (mkOracle (fun t q => if (t <? 2) then Full else if N.eqb q 1 then Accept else Full)
                   (fun t q => if N.eqb q 1 then Accept else Closed) (fun _ => [])),
         (mkBal [0; 1]%N 0).
  split; [reflexivity|]. split; [left; simpl; lia|]. split; [reflexivity|]. split; [|reflexivity].
  intros t Ht. simpl. destruct (Nat.ltb_spec t 2); [lia|]. split; reflexivity.
Qed.

(* route_message(.., wait_for_peer = false), which is what DealerSocket::send_logical_message calls, never parks
   and never passes a peer's error through *)
Lemma sweep_false_outcomes o k : forall b t log,
  match r_out (sweep o false false k (slow_send o) b t log) with ReturnedErr _ | WaitForPeer => False | _ => True end.
Proof.
  induction k as [|k IH]; intros b t log; simpl; [unfold slow_send|unfold attempt];
    (destruct (get_next b) as [[p|] b']; [|exact I]).
  - simpl. destruct (o_slow o t p); exact I.
  - destruct (o_fast o t p); try exact I. apply IH.
Qed.
