(* DEALER's outgoing path (Model/Dealer.v). `d_step_moves` says once what a step does to queue, pipe and
   accepted sequence, for the code and for the repair sketch; the permutation invariant, the order theorem of
   the code (no send before the attach) and that of the repair sketch (every history) are read off it. *)
From Coq Require Import Permutation.
From RZ Require Import Base.Prelude Model.Dealer.

Set Implicit Arguments.

Section DealerProofs.
Variable M : Type.

(* What a step does to the three lists: nothing; a send goes straight to the pipe, or to the back
   of the queue, which had room; the processor hands over the front of the queue, one message in
   the code, all of it in the repair sketch. *)
Inductive d_moves (ser : bool) (hwm : nat) (e : dev M) (s s' : dstate M) : Prop :=
| dm_none : d_pend s' = d_pend s -> d_routed s' = d_routed s -> d_accepted s' = d_accepted s ->
    d_moves ser hwm e s s'
| dm_direct m : e = DSend m -> d_conn s = true -> (ser = true -> d_pend s = []) -> d_pend s' = d_pend s ->
    d_routed s' = d_routed s ++ [m] -> d_accepted s' = d_accepted s ++ [m] -> d_moves ser hwm e s s'
| dm_queue m : e = DSend m -> (ser = false -> d_conn s = false) -> length (d_pend s) < hwm ->
    d_pend s' = d_pend s ++ [m] -> d_routed s' = d_routed s -> d_accepted s' = d_accepted s ++ [m] ->
    d_moves ser hwm e s s'
| dm_hand l : d_pend s = l ++ d_pend s' -> (ser = true -> d_pend s' = []) ->
    d_routed s' = d_routed s ++ l -> d_accepted s' = d_accepted s -> d_moves ser hwm e s s'.

Lemma d_step_moves ser hwm s e : d_moves ser hwm e s (d_step ser hwm s e).
Proof.
  assert (Hbody : forall s0, d_pend s0 = d_pend s -> d_routed s0 = d_routed s -> d_accepted s0 = d_accepted s ->
            d_moves ser hwm e s (proc_body ser s0)).
  { intros s0 Hp Hr Ha. unfold proc_body. destruct (d_conn s0); [|now apply dm_none].
    destruct (d_pend s0) as [|m r] eqn:Ep; [apply dm_none; congruence|].
    destruct ser; [apply dm_hand with (l := m :: r) | apply dm_hand with (l := [m])]; cbn;
      rewrite ?app_nil_r; congruence. }
  destruct e as [m| | |]; cbn [d_step].
  - destruct (d_conn s && negb (ser && negb _)) eqn:E.
    + apply andb_prop in E. destruct E as [Ec E]. apply dm_direct with (m := m); cbn; auto.
      intros ->. destruct (d_pend s); [reflexivity | discriminate].
    + destruct (Nat.ltb_spec (length (d_pend s)) hwm); [|now apply dm_none].
      apply dm_queue with (m := m); cbn; auto. intros ->. rewrite andb_true_r in E. exact E.
  - now apply dm_none.
  - destruct (d_qa s); [now apply Hbody | now apply dm_none].
  - destruct (d_pa s); [now apply Hbody | now apply dm_none].
Qed.

(* only pipe_attached changes has_connections() *)
Lemma d_step_conn ser hwm (s : dstate M) e :
  d_conn (d_step ser hwm s e) = match e with DAttach _ => true | _ => d_conn s end.
Proof.
  assert (Hbody : forall s0 : dstate M, d_conn (proc_body ser s0) = d_conn s0).
  { intros s0. unfold proc_body. destruct (d_conn s0) eqn:Ec; [|exact Ec]. destruct (d_pend s0), ser; auto. }
  destruct e; cbn [d_step]; [destruct (_ && _); [|destruct (_ <? _)] | | destruct (d_qa s) | destruct (d_pa s)];
    rewrite ?Hbody; reflexivity.
Qed.

(* nothing is dropped or duplicated by the queue, in the code and in the repair sketch *)
Lemma d_step_perm ser hwm (s : dstate M) e :
  Permutation (d_routed s ++ d_pend s) (d_accepted s) ->
  Permutation (d_routed (d_step ser hwm s e) ++ d_pend (d_step ser hwm s e)) (d_accepted (d_step ser hwm s e)).
Proof.
  intros H. destruct (d_step_moves ser hwm s e) as [-> -> -> | m _ _ _ -> -> -> | m _ _ _ -> -> -> | l Hl _ -> ->].
  - exact H.
  - rewrite <- app_assoc, (Permutation_app_comm [m]), app_assoc. apply Permutation_app_tail, H.
  - rewrite app_assoc. apply Permutation_app_tail, H.
  - rewrite <- app_assoc, <- Hl. exact H.
Qed.

(* The code: as long as nothing was accepted before the connection existed, the queue stays empty
   and DEALER hands messages over in send order. *)
Theorem dealer_direct_order hwm evs :
  sends_after_attach false evs = true ->
  let s := d_run false hwm evs in d_pend s = [] /\ d_routed s = @d_accepted M s.
Proof.
  assert (G : forall (s0 : dstate M), d_pend s0 = [] -> d_routed s0 = d_accepted s0 ->
            sends_after_attach (d_conn s0) evs = true ->
            let s := fold_left (d_step false hwm) evs s0 in d_pend s = [] /\ d_routed s = d_accepted s);
    [|exact (G (d_new M) eq_refl eq_refl)].
  induction evs as [|e evs IH]; intros s0 Hp Hr Hs; cbn [fold_left]; [auto|].
  assert (d_pend (d_step false hwm s0 e) = [] /\ d_routed (d_step false hwm s0 e) = d_accepted (d_step false hwm s0 e))
    as [Hp' Hr'].
  { destruct (d_step_moves false hwm s0 e) as [-> -> -> | m _ _ _ -> -> -> | m -> Hc _ _ _ _ | l Hl _ -> ->].
    - auto.
    - split; congruence.
    - cbn in Hs. rewrite Hc in Hs by reflexivity. discriminate.
    - rewrite Hp in Hl. symmetry in Hl. apply app_eq_nil in Hl. destruct Hl as [-> ->]. rewrite app_nil_r. auto. }
  apply IH; [exact Hp' | exact Hr' |].
  rewrite d_step_conn. destruct e; cbn [sends_after_attach] in Hs; auto. apply andb_prop in Hs. tauto.
Qed.

(* The repair sketch keeps send order in every history. *)
Lemma d_step_ser hwm (s : dstate M) e :
  d_routed s ++ d_pend s = d_accepted s ->
  d_routed (d_step true hwm s e) ++ d_pend (d_step true hwm s e) = d_accepted (d_step true hwm s e).
Proof.
  intros H. destruct (d_step_moves true hwm s e) as [-> -> -> | m _ _ Hp -> -> -> | m _ _ _ -> -> -> | l Hl _ -> ->].
  - exact H.
  - rewrite <- H, Hp, !app_nil_r by reflexivity. reflexivity.
  - rewrite app_assoc, H. reflexivity.
  - rewrite <- app_assoc, <- Hl. exact H.
Qed.

(* There a non-empty queue on a connected socket always has a wake-up of the processor pending:
   every push and the attach leave a permit, and the wake-up that consumes it empties the queue. *)
Definition permit_kept (s : dstate M) : Prop := d_pend s <> [] -> d_conn s = true -> d_qa s = true.

Lemma d_step_permit hwm s e : permit_kept s -> permit_kept (d_step true hwm s e).
Proof.
  unfold permit_kept. destruct s as [pend conn qa pa routed acc]. cbn [d_pend d_conn d_qa]. intros Hq.
  destruct e; cbn [d_step d_pend d_conn d_qa d_pa]; [| auto | destruct qa; [|exact Hq] | destruct pa; [|exact Hq]].
  - destruct conn, pend; cbn [andb negb]; try destruct (_ <? hwm); cbn; auto.
  - unfold proc_body. destruct conn, pend; cbn; congruence.
  - unfold proc_body. destruct conn, pend; cbn; auto; congruence.
Qed.

Theorem dealer_serialised_order hwm evs :
  let s := d_run true hwm evs in
  d_routed s ++ d_pend s = @d_accepted M s /\ (d_quiescent s = true -> d_routed s = d_accepted s).
Proof.
  destruct (fold_left_inv (d_step true hwm) (fun s => d_routed s ++ d_pend s = d_accepted s /\ permit_kept s))
    with (l := evs) (a := d_new M) as [E1 E2].
  - intros s e [H1 H2]. split; [apply d_step_ser, H1 | apply d_step_permit, H2].
  - split; [reflexivity | intros H; now elim H].
  - fold (d_run true hwm evs) in E1, E2. split; [exact E1|]. unfold d_quiescent. intros Hq.
    apply andb_prop in Hq. destruct Hq as [Hq _]. apply andb_prop in Hq. destruct Hq as [Hc Hqa].
    destruct (d_pend (d_run true hwm evs)) eqn:Hp.
    + rewrite app_nil_r in E1. exact E1.
    + rewrite E2 in Hqa; [discriminate | congruence | exact Hc].
Qed.

End DealerProofs.
