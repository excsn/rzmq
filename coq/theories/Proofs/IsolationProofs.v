(* Model/Isolation.v (property C17, isolation part). `stays_running_iff` is the decision table (by cases on the
   input: which inputs take a Running socket out of Running); `step_keeps_endpoint` says which endpoints an input
   leaves alone; runs are inductions over these two, and `fault_is_local` instantiates them to connection faults.
   Then the reconnect bookkeeping, which hands the delay of Model/Backoff.v to the per-URI state. *)
From RZ Require Import Base.Prelude Model.Backoff Model.Isolation Proofs.BackoffProofs.
Local Open Scope N_scope.

Lemma phase_eqb_spec a b : phase_eqb a b = true <-> a = b.
Proof. destruct a, b; cbn; split; intros H; try reflexivity; try discriminate. Qed.

Lemma initiate_shutdown_not_running s : ph (initiate_shutdown s) <> Running.
Proof. unfold initiate_shutdown. destruct (ph s) eqn:E; cbn; rewrite ?E; discriminate. Qed.
Lemma initiate_shutdown_eps s : eps (initiate_shutdown s) = eps s.
Proof. unfold initiate_shutdown. destruct (ph s); reflexivity. Qed.
Lemma initiate_shutdown_names s : inproc_names (initiate_shutdown s) = inproc_names s.
Proof. unfold initiate_shutdown. destruct (ph s); reflexivity. Qed.

Lemma handle_names c s i : inproc_names (fst (handle c s i)) = inproc_names s.
Proof.
  destruct i; cbn [handle]; repeat match goal with
  | |- context [if ?b then _ else _] => destruct b
  | |- context [match ?x with _ => _ end] => destruct x
  end; cbn [fst inproc_names]; try reflexivity; try apply initiate_shutdown_names.
  unfold connect_failed. destruct (ivl_positive c && negb (is_fatal_connect_error err)); reflexivity.
Qed.

Lemma step_names c s i : inproc_names (step c s i) = inproc_names s.
Proof.
  unfold step. pose proof (handle_names c s i) as H. destruct (handle c s i) as [s' f]. cbn [fst] in H.
  destruct f; [rewrite initiate_shutdown_names|]; exact H.
Qed.

Lemma stays_running_iff c s i : ph s = Running ->
  (ph (step c s i) = Running <-> keeps_running (inproc_names s) i = true).
Proof.
  intros Hr. unfold step.
  destruct i; cbn [handle keeps_running]; rewrite ?Hr; cbn [phase_eqb];
  repeat match goal with
  | |- context [if ?b then _ else _] => destruct b eqn:?
  | |- context [match ?x with _ => _ end] => destruct x eqn:?
  end; cbn [ph actor_stopping connect_failed add_endpoint negb andb orb]; rewrite ?Hr;
  try (split; [reflexivity|]; intros _; try reflexivity; assumption);
  try (split; intros H; try discriminate; exfalso; revert H; apply initiate_shutdown_not_running);
  try (unfold connect_failed; repeat match goal with |- context [if ?b then _ else _] => destruct b end; cbn [ph]; rewrite ?Hr; split; reflexivity).
  all: destruct compatible, mailbox_open; cbn [negb andb] in *; try discriminate;
    split; intros H; try reflexivity; try discriminate; exfalso; revert H; apply initiate_shutdown_not_running.
Qed.

Lemma remove_by_id_keeps id l e : In e l -> e_id e <> id -> In e (remove_by_id id l).
Proof.
  induction l as [|x r IH]; cbn [remove_by_id In]; [tauto|]. intros [->|H] Hn.
  - destruct (e_id e =? id) eqn:E; [lia|]. left. reflexivity.
  - destruct (e_id x =? id); [exact H|]. right. apply IH; assumption.
Qed.
Lemma remove_by_id_subset id l e : In e (remove_by_id id l) -> In e l.
Proof.
  induction l as [|x r IH]; cbn [remove_by_id In]; [tauto|].
  destruct (e_id x =? id); [tauto|]. cbn [In]. intros [H|H]; [tauto|]. right. apply IH, H.
Qed.
Lemma remove_by_uri_keeps u l e : In e l -> e_uri e <> u -> In e (remove_by_uri u l).
Proof. intros H Hn. unfold remove_by_uri. apply filter_In. split; [exact H|]. lia. Qed.

Lemma step_keeps_endpoint c s i e :
  In e (eps s) -> stopped_id i <> Some (e_id e) -> added_uri i <> Some (e_uri e) -> In e (eps (step c s i)).
Proof.
  intros Hin Hs Ha. unfold step.
  destruct i; cbn [handle stopped_id added_uri] in *;
  repeat match goal with
  | |- context [if ?b then _ else _] => destruct b eqn:?
  | |- context [match ?x with _ => _ end] => destruct x eqn:?
  end; rewrite ?initiate_shutdown_eps; cbn [eps actor_stopping add_endpoint]; try exact Hin;
  try (unfold connect_failed; repeat match goal with |- context [if ?b then _ else _] => destruct b end; cbn [eps]; exact Hin).
  all: try (apply remove_by_id_keeps; [exact Hin|]; intros Heq; apply Hs; rewrite Heq; reflexivity).
  all: try (right; apply remove_by_uri_keeps; [exact Hin|]; intros Heq; apply Ha; rewrite Heq; reflexivity).
Qed.

Lemma run_cons c s i r : run c s (i :: r) = run c (step c s i) r.
Proof. reflexivity. Qed.

Lemma run_stays_running c is : forall s, ph s = Running ->
  Forall (fun i => keeps_running (inproc_names s) i = true) is ->
  ph (run c s is) = Running /\ inproc_names (run c s is) = inproc_names s.
Proof.
  induction is as [|i r IH]; intros s Hr HF; [split; [exact Hr|reflexivity]|].
  rewrite run_cons. inversion HF as [|? ? Hi HF']; subst.
  assert (Hs : ph (step c s i) = Running) by (apply stays_running_iff; assumption).
  destruct (IH (step c s i) Hs) as [H1 H2]; [rewrite step_names; exact HF'|].
  split; [exact H1|]. rewrite H2. apply step_names.
Qed.

Lemma run_keeps_endpoint c is : forall s e, In e (eps s) ->
  (forall i, In i is -> stopped_id i <> Some (e_id e)) ->
  (forall i, In i is -> added_uri i <> Some (e_uri e)) ->
  In e (eps (run c s is)).
Proof.
  induction is as [|i r IH]; intros s e Hin Hs Ha; [exact Hin|].
  rewrite run_cons. apply IH.
  - apply step_keeps_endpoint; [exact Hin|apply Hs; left; reflexivity|apply Ha; left; reflexivity].
  - intros j Hj. apply Hs. right. exact Hj.
  - intros j Hj. apply Ha. right. exact Hj.
Qed.

(* connection faults never make a handler return Err, never touch the phase *)
Lemma conn_fault_keeps_running names i : is_conn_fault i = true -> keeps_running names i = true.
Proof. destruct i; cbn; try discriminate; reflexivity. Qed.
Lemma conn_fault_adds_nothing i : is_conn_fault i = true -> added_uri i = None.
Proof. destruct i; cbn; try discriminate; reflexivity. Qed.

(* fault_is_local: any sequence of connection faults (protocol violation, failed authentication,
   incompatible type, reset, EOF, timeout, refused / failed connection attempts ...) on a Running socket:
   the socket stays Running, its inproc bindings stay, and every endpoint (listener or connection)
   that is not itself reported as stopped is still there, unchanged. *)
Lemma fault_is_local c s is :
  ph s = Running -> Forall (fun i => is_conn_fault i = true) is ->
  ph (run c s is) = Running /\ inproc_names (run c s is) = inproc_names s /\
  forall e, In e (eps s) -> (forall i, In i is -> stopped_id i <> Some (e_id e)) -> In e (eps (run c s is)).
Proof.
  intros Hr HF.
  destruct (run_stays_running c is s Hr) as [H1 H2].
  { eapply Forall_impl; [|exact HF]. intros i Hi. apply conn_fault_keeps_running, Hi. }
  split; [exact H1|]. split; [exact H2|]. intros e Hin Hs. apply run_keeps_endpoint; [exact Hin|exact Hs|].
  intros i Hi. rewrite Forall_forall in HF. rewrite (conn_fault_adds_nothing i (HF i Hi)). discriminate.
Qed.

(* no endpoint appears out of a fault either *)
Lemma step_fault_subset c s i e : is_conn_fault i = true -> In e (eps (step c s i)) -> In e (eps s).
Proof.
  intros Hf. unfold step. destruct i; cbn in Hf; try discriminate.
  - destruct parent_is_me; [|discriminate]. destruct err; [|discriminate]. cbn [handle eps actor_stopping].
    apply remove_by_id_subset.
  - destruct parent_is_me; [|discriminate]. cbn [handle]. unfold connect_failed.
    destruct (ivl_positive c && negb (is_fatal_connect_error err)); cbn [eps]; tauto.
Qed.

Lemma recon_get_set u v m : recon_get u (recon_set u v m) = Some v.
Proof.
  induction m as [|[k w] r IH]; cbn [recon_set recon_get]; [rewrite N.eqb_refl; reflexivity|].
  destruct (k =? u) eqn:E; cbn [recon_get]; rewrite E; [reflexivity|exact IH].
Qed.
Lemma recon_get_set_other u u' v m : u' <> u -> recon_get u' (recon_set u v m) = recon_get u' m.
Proof.
  intros Hn. induction m as [|[k w] r IH]; cbn [recon_set recon_get].
  - replace (u =? u') with false by lia. reflexivity.
  - destruct (k =? u) eqn:E; cbn [recon_get]; [replace (k =? u') with false by lia; reflexivity|].
    destruct (k =? u'); [reflexivity|exact IH].
Qed.

Definition cfg_base (c : cfg) : N := match reconnect_ivl c with Some b => b | None => 100000000 end.
Definition cfg_max (c : cfg) : N := match reconnect_ivl_max c with Some x => x | None => 60000000000 end.
Definition attempts_of (u : N) (s : core) : N := match recon_get u (recon s) with Some (a, _) => a | None => 0 end.

(* an outbound connection that fails with a non-fatal error while the socket runs is scheduled for a
   retry after exactly the back-off delay of Model/Backoff.v, and the attempt counter advances *)
Lemma reconnect_scheduled c s child u e er :
  ph s = Running -> find_by_id child (eps s) = Some e -> e_kind e = Session -> e_outbound e = true ->
  ivl_positive c = true -> is_fatal_connect_error er = false ->
  let s' := step c s (EvActorStopping true child (Some u) (Some er)) in
  ph s' = Running /\
  recon_get u (recon s') = Some (u32_sat_add (attempts_of u s) 1, Some (delay (cfg_base c) (cfg_max c) (attempts_of u s))) /\
  (forall u', u' <> u -> recon_get u' (recon s') = recon_get u' (recon s)).
Proof.
  intros Hr Hf Hk Ho Hi He. cbn zeta. unfold step. cbn [handle]. unfold actor_stopping.
  rewrite Hf, Hk, Ho, Hi, He, Hr. cbn [andb negb ph recon]. split; [reflexivity|].
  unfold recon_fail, attempts_of, cfg_base, cfg_max. split; [apply recon_get_set|].
  intros u' Hn. apply recon_get_set_other, Hn.
Qed.

(* the same for a failed connection attempt (connect refused, handshake failure reported by the connecter) *)
Lemma reconnect_scheduled_attempt c s u er :
  ivl_positive c = true -> is_fatal_connect_error er = false ->
  let s' := step c s (EvConnAttemptFailed true u er) in
  ph s' = ph s /\ eps s' = eps s /\
  recon_get u (recon s') = Some (u32_sat_add (attempts_of u s) 1, Some (delay (cfg_base c) (cfg_max c) (attempts_of u s))).
Proof.
  intros Hi He. cbn zeta. unfold step. cbn [handle]. unfold connect_failed. rewrite Hi, He. cbn [andb negb ph eps recon].
  split; [reflexivity|]. split; [reflexivity|]. apply recon_get_set.
Qed.

(* consecutive failed attempts on one URI advance its attempt counter as Backoff's att_after does *)
Lemma repeated_failures_follow_backoff c u er k : ivl_positive c = true -> is_fatal_connect_error er = false ->
  forall s, attempts_of u (run c s (repeat (EvConnAttemptFailed true u er) k)) = att_after k (attempts_of u s).
Proof.
  intros Hi He. induction k as [|k IH]; intros s; [reflexivity|].
  cbn [repeat]. rewrite run_cons, IH. cbn [att_after]. f_equal.
  destruct (reconnect_scheduled_attempt c s u er Hi He) as (_ & _ & Hg).
  unfold attempts_of at 1. rewrite Hg. reflexivity.
Qed.

(* the concrete socket of the witnesses in Props/C17.v *)
Definition demo_core : core :=
  {| ph := Running;
     eps := [ {| e_id := 1; e_uri := 100; e_kind := Listener; e_outbound := false |};
              {| e_id := 2; e_uri := 200; e_kind := Session; e_outbound := false |} ];
     recon := []; inproc_names := [7] |}.
Definition demo_cfg : cfg := {| reconnect_ivl := Some 100000000; reconnect_ivl_max := Some 400000000 |}.
Definition bad_conn : endpoint := {| e_id := 9; e_uri := 900; e_kind := Session; e_outbound := false |}.

(* an outbound session that is not among the endpoints of [demo_core] *)
Definition out_conn : endpoint := {| e_id := 200; e_uri := 300; e_kind := Session; e_outbound := true |}.
