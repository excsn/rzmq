(* Model/RxSession.v: one invariant (rx_inv) relates every state of the receiving loop to the engine's run over
   the chunks read so far, for any gate on the read arm; with the code's gate (read only while ingress_buffer is
   empty) the peer's EOF is seen with nothing buffered, so nothing decoded is lost. *)
From RZ Require Import Base.Prelude Base.Stepper Model.Codec Proofs.CodecProofs Model.Engine
  Proofs.EngineProofs Model.Actor Proofs.ActorProofs Model.RxSession.
Local Open Scope N_scope.

Lemma nets_prefix_no_err cfg a b g :
  has_err (snd (nets cfg g (a ++ b))) = false -> has_err (snd (nets cfg g a)) = false.
Proof.
  rewrite nets_app. destruct (nets cfg g a) as [g1 o1], (nets cfg g1 b) as [g2 o2]. cbn [snd].
  rewrite has_err_app. intros H. apply orb_false_iff in H. apply H.
Qed.

Lemma x_run_inv gate cfg (P : rx -> Prop) :
  (forall s e, P s -> P (x_step gate cfg s e)) -> forall es s, P s -> P (x_run gate cfg s es).
Proof. intros H es. induction es as [|e es IH]; intros s Hs; [exact Hs|]. apply IH, H, Hs. Qed.

(* what every state of the receiving session satisfies, for ANY gate on the read arm *)
Definition rx_inv (cfg : ecfg) (g0 : engine) (input : list (bytes * N)) (s : rx) : Prop :=
  x_seen s ++ x_in s = input /\
  fst (nets cfg g0 (x_seen s)) = x_eng s /\
  deliveries (snd (nets cfg g0 (x_seen s))) = x_pipe s ++ x_buf s ++ x_dropped s /\
  (x_over s = false -> x_dropped s = [] /\ has_err (snd (nets cfg g0 (x_seen s))) = false).

Lemma rx_inv_new cfg t g0 input : rx_inv cfg g0 input (x_new t g0 input).
Proof. unfold rx_inv, x_new. cbn. repeat split; auto; discriminate. Qed.

Lemma rx_step_inv gate cfg g0 input s e : rx_inv cfg g0 input s -> rx_inv cfg g0 input (x_step gate cfg s e).
Proof.
  intros Hinv. unfold x_step. destruct (x_over s) eqn:Eo; [exact Hinv|].
  pose proof Hinv as (H1 & H2 & H3 & H4). destruct (H4 Eo) as [Hd Hne]. rewrite Hd, app_nil_r in H3.
  destruct e as [|k].
  - destruct (gate s); [|exact Hinv].
    destruct (x_in s) as [|[d t] rest] eqn:Ei; [repeat split; auto; discriminate|].
    destruct (e_net cfg (x_eng s) d t) as [g o] eqn:Ee.
    destruct (has_err o) eqn:Eh; unfold rx_inv; cbn [x_seen x_in x_eng x_pipe x_buf x_dropped x_over];
      rewrite nets_snoc, H2, Ee; cbn [fst snd];
      rewrite deliveries_app, has_err_app, Hne, Eh, H3, ?app_nil_r, <- !app_assoc; repeat split; auto; discriminate.
  - unfold rx_inv. cbn [x_seen x_in x_eng x_pipe x_buf x_dropped x_over].
    rewrite app_nil_r, <- app_assoc, firstn_skipn. repeat split; auto.
Qed.

(* conservation, for every gate and every schedule: handed to the pipe ++ still buffered ++ dropped with the loop =
   the engine's deliveries for the chunks read so far, in order *)
Theorem rx_conservation gate cfg t g0 input es :
  let s := x_run gate cfg (x_new t g0 input) es in
  x_pipe s ++ x_buf s ++ x_dropped s = deliveries (snd (nets cfg g0 (x_seen s))) /\ x_seen s ++ x_in s = input.
Proof.
  cbn zeta. destruct (x_run_inv gate cfg _ (rx_step_inv gate cfg g0 input) es _ (rx_inv_new cfg t g0 input)) as (H1 & _ & H3 & _).
  split; [symmetry; exact H3|exact H1].
Qed.

(* What makes EOF harmless is that the read arm runs only while ingress_buffer is empty, as the code's gate
   ensures: then EOF is seen with nothing buffered, and a loop that was left without an error has read
   everything and dropped nothing. *)
Section Gate.
Variable gate : rx -> bool.
Hypothesis gate_buf_empty : forall s, gate s = true -> x_buf s = [].

Definition eof_clean (cfg : ecfg) (g0 : engine) (s : rx) : Prop :=
  x_over s = true -> has_err (snd (nets cfg g0 (x_seen s))) = false ->
  x_dropped s = [] /\ x_in s = [] /\ x_buf s = [].

Lemma eof_clean_step cfg g0 input s e :
  rx_inv cfg g0 input s -> eof_clean cfg g0 s -> eof_clean cfg g0 (x_step gate cfg s e).
Proof.
  intros (_ & H2 & _) Hc. unfold x_step. destruct (x_over s) eqn:Eo; [exact Hc|].
  destruct e as [|k]; [|intros Ho; discriminate Ho].
  destruct (gate s) eqn:Eg; [|exact Hc]. apply gate_buf_empty in Eg.
  destruct (x_in s) as [|[d t] rest] eqn:Ei; [intros _ _; cbn; auto|].
  destruct (e_net cfg (x_eng s) d t) as [g o] eqn:Ee.
  destruct (has_err o) eqn:Eh; [|intros Ho; discriminate Ho].
  intros _. cbn [x_seen]. rewrite nets_snoc, H2, Ee. cbn [snd]. rewrite has_err_app, Eh, orb_true_r. discriminate.
Qed.

Theorem rx_gated_eof_loses_nothing cfg t g0 input : has_err (snd (nets cfg g0 input)) = false ->
  forall es, let s := x_run gate cfg (x_new t g0 input) es in
  x_dropped s = [] /\ (x_over s = true -> x_pipe s = deliveries (snd (nets cfg g0 input))).
Proof.
  intros Hok es s.
  assert (H : rx_inv cfg g0 input s /\ eof_clean cfg g0 s).
  { apply x_run_inv.
    - intros s0 e [Hi Hc]. split; [apply rx_step_inv, Hi | apply (eof_clean_step cfg g0 input); assumption].
    - split; [apply rx_inv_new | intros Ho; discriminate Ho]. }
  clearbody s. destruct H as [(H1 & _ & H3 & H4) Hc].
  assert (Hne : has_err (snd (nets cfg g0 (x_seen s))) = false)
    by (apply (nets_prefix_no_err cfg _ (x_in s)); rewrite H1; exact Hok).
  split.
  - destruct (x_over s) eqn:Eo; [apply Hc; auto | apply H4; reflexivity].
  - intros Ho. destruct (Hc Ho Hne) as (Hd & Hin & Hb). rewrite Hin, app_nil_r in H1.
    rewrite <- H1, H3, Hb, Hd, !app_nil_r. reflexivity.
Qed.
End Gate.

(* no message is lost to the peer's EOF: for an error-free stream, every schedule, every segmentation - once the
   loop has been left, everything the engine decoded from the WHOLE stream has been handed to the pipe *)
Theorem rx_eof_loses_nothing cfg t g0 input : has_err (snd (nets cfg g0 input)) = false ->
  forall es, let s := x_run gate_empty cfg (x_new t g0 input) es in
  x_dropped s = [] /\ (x_over s = true -> x_pipe s = deliveries (snd (nets cfg g0 input))).
Proof.
  apply rx_gated_eof_loses_nothing. intros s. unfold gate_empty. destruct (x_buf s); [reflexivity | discriminate].
Qed.

(* ... and that sequence does not depend on how the stream was cut into reads *)
Corollary rx_eof_segmentation_independent cfg t input1 input2 :
  concat (map fst input1) = concat (map fst input2) ->
  has_err (snd (nets cfg (e_new t) input1)) = false ->
  forall es1 es2,
  let s1 := x_run gate_empty cfg (x_new t (e_new t) input1) es1 in
  let s2 := x_run gate_empty cfg (x_new t (e_new t) input2) es2 in
  x_over s1 = true -> x_over s2 = true -> x_pipe s1 = x_pipe s2.
Proof.
  intros Hc Hok es1 es2. cbn zeta. intros O1 O2.
  assert (E : snd (nets cfg (e_new t) input1) = snd (nets cfg (e_new t) input2)).
  { rewrite !nets_one_read by apply e_new_quiescent. f_equal. f_equal. exact Hc. }
  rewrite (proj2 (rx_eof_loses_nothing cfg t _ input1 Hok es1) O1), E.
  rewrite E in Hok. symmetry. exact (proj2 (rx_eof_loses_nothing cfg t _ input2 Hok es2) O2).
Qed.

Definition gate_lwm2 (s : rx) : bool := (length (x_buf s) <? 2)%nat.

(* a gate that lets the read arm run while messages are still buffered (a refill threshold) loses the buffered
   tail to the peer's EOF *)
Theorem rx_refill_gate_loses_refuted :
  let s := x_run gate_lwm2 legacy_witness_cfg (x_new 0 (e_new 0) [(legacy_witness_stream, 0)]) [XRead; XRead] in
  has_err (snd (nets legacy_witness_cfg (e_new 0) [(legacy_witness_stream, 0)])) = false /\
  x_over s = true /\ x_pipe s = [] /\ x_dropped s = [[data_frame false [1; 2; 3]]] /\
  (* the code's gate leaves the second poll of the read arm disabled until the message has been handed over *)
  x_over (x_run gate_empty legacy_witness_cfg (x_new 0 (e_new 0) [(legacy_witness_stream, 0)]) [XRead; XRead]) = false.
Proof. vm_compute. repeat split; reflexivity. Qed.

(* with the code's gate: messages decoded in the same read as a later protocol error are dropped with the loop, so for
   a stream that ENDS IN AN ERROR what the application gets does depend on the segmentation *)
Definition two_msgs : bytes :=
  legacy_witness_stream ++ enc_codec (data_frame false [4; 5; 6]).
Definition error_tail : bytes := enc_codec (cmd_frame (5 :: s_ERROR ++ [0])).
Theorem rx_error_tail_depends_on_cuts_refuted :
  let one := x_run gate_empty legacy_witness_cfg (x_new 0 (e_new 0) [(two_msgs ++ error_tail, 0)]) [XRead; XDrain 5] in
  let two := x_run gate_empty legacy_witness_cfg (x_new 0 (e_new 0) [(two_msgs, 0); (error_tail, 0)]) [XRead; XDrain 5; XRead] in
  x_over one = true /\ x_over two = true /\ x_pipe one = [] /\ length (x_pipe two) = 2%nat.
Proof. vm_compute. repeat split; reflexivity. Qed.
