(* Batch assembly (Model/Batch.v). One activation is described once, by `assembled` / `assemble_shape`:
   the batch is a prefix of the carry-over followed by a prefix of the pipe. Order, permutation, progress
   and the HWM budget of one activation are list algebra on that shape; the theorems about runs are
   inductions over the event list that use the one-activation theorems. *)
From Coq Require Import Permutation.
From RZ Require Import Base.Prelude Model.Batch.

Set Implicit Arguments.

Section BatchProofs.
Variable M : Type.
Variable wsize : M -> N.

Notation drain_carry := (drain_carry wsize).
Notation scan_overflow := (scan_overflow wsize).
Notation top_up := (top_up wsize).
Notation assemble_gen := (assemble_gen wsize).
Notation assemble := (assemble wsize).
Notation run_gen := (run_gen wsize).
Notation run := (run wsize).
Notation run_legacy := (run_legacy wsize).
Notation run_clean := (run_clean wsize).
Notation topup_over_carry := (topup_over_carry wsize).
Notation sum_sizes := (sum_sizes wsize).

Lemma sum_sizes_app a b : sum_sizes (a ++ b) = (sum_sizes a + sum_sizes b)%N.
Proof. unfold Batch.sum_sizes. induction a as [|x a IH]; cbn; [|rewrite IH]; lia. Qed.

Lemma drain_carry_split mc mb : forall carry batch total b t c,
  drain_carry mc mb batch total carry = (b, t, c) ->
  b ++ c = batch ++ carry /\ (exists d, b = batch ++ d) /\ length b <= Nat.max (length batch) mc.
Proof.
  induction carry as [|next rest IH]; intros batch total b t c H; cbn [Batch.drain_carry] in H.
  - inversion H; subst. rewrite app_nil_r. split; [reflexivity|]. split; [exists []; now rewrite app_nil_r | lia].
  - destruct (length batch <? mc) eqn:Hl.
    + destruct ((mb <? total + wsize next)%N && negb (match batch with [] => true | _ => false end)).
      * inversion H; subst. split; [reflexivity|]. split; [exists []; now rewrite app_nil_r | lia].
      * apply IH in H. destruct H as (H1 & (d & H2) & H3). split.
        { rewrite H1, <- app_assoc. reflexivity. }
        split. { exists (next :: d). rewrite H2, <- app_assoc. reflexivity. }
        rewrite app_length in H3. cbn [length] in H3. apply Nat.ltb_lt in Hl. lia.
    + inversion H; subst. split; [reflexivity|]. split; [exists []; now rewrite app_nil_r | lia].
Qed.

Lemma drain_carry_first mc mb next rest b t c :
  1 <= mc -> drain_carry mc mb [] 0%N (next :: rest) = (b, t, c) -> exists d, b = next :: d.
Proof.
  intros Hmc H. cbn [Batch.drain_carry] in H. cbn [length] in H.
  replace (0 <? mc) with true in H by (symmetry; apply Nat.ltb_lt; lia).
  rewrite andb_false_r in H. apply drain_carry_split in H. destruct H as (_ & (d & ->) & _).
  exists d. reflexivity.
Qed.

Lemma drain_carry_total mc mb : forall carry batch total b t c,
  drain_carry mc mb batch total carry = (b, t, c) ->
  total = sum_sizes batch -> t = sum_sizes b.
Proof.
  induction carry as [|next rest IH]; intros batch total b t c H Ht; cbn [Batch.drain_carry] in H.
  - inversion H; subst. reflexivity.
  - destruct (length batch <? mc).
    + destruct ((mb <? total + wsize next)%N && negb (match batch with [] => true | _ => false end)).
      * inversion H; subst. reflexivity.
      * eapply IH; [exact H|]. subst total. rewrite sum_sizes_app. cbn. lia.
    + inversion H; subst. reflexivity.
Qed.

Lemma scan_overflow_split mb : forall pulled kept total k t o,
  scan_overflow mb kept total pulled = (k, t, o) ->
  k ++ o = kept ++ pulled /\ (exists d, k = kept ++ d).
Proof.
  induction pulled as [|m rest IH]; intros kept total k t o H; cbn [Batch.scan_overflow] in H.
  - inversion H; subst. split; [reflexivity | exists []; now rewrite app_nil_r].
  - destruct ((mb <? total + wsize m)%N && (0 <? length kept)).
    + inversion H; subst. split; [reflexivity | exists []; now rewrite app_nil_r].
    + apply IH in H. destruct H as (H1 & d & H2). split.
      * rewrite H1, <- app_assoc. reflexivity.
      * exists (m :: d). rewrite H2, <- app_assoc. reflexivity.
Qed.

(* top_up: what is added to the batch plus the overflow is exactly a prefix of the pipe, at most
   `max_count - length batch` long *)
Lemma top_up_split c mc batch total pipe b o p :
  top_up c mc batch total pipe = (b, o, p) ->
  exists pulled, b ++ o = batch ++ pulled /\ pulled ++ p = pipe /\ (exists d, b = batch ++ d)
                 /\ length batch + length pulled <= Nat.max (length batch) mc
                 /\ (length p = length pipe -> pulled = []).
Proof.
  unfold Batch.top_up. intros H.
  (* the arms that pull nothing *)
  match goal with |- ?G => assert (Hnone : (batch, @nil M, pipe) = (b, o, p) -> G) end.
  { intros E. inversion E; subst. exists []. rewrite !app_nil_r. repeat split; auto.
    - exists []. now rewrite app_nil_r.
    - cbn. lia. }
  destruct ((length batch <? mc) && (total <? b_logical c)%N) eqn:Hg; [|auto].
  match type of H with context [N.to_nat (N.min ?a ?b)] => set (needed := N.to_nat (N.min a b)) in * end.
  destruct (0 <? needed) eqn:Hn; [|auto].
  destruct (scan_overflow (b_physical c) batch total (firstn needed pipe)) as [[k t] ov] eqn:Hs.
  inversion H; subst. apply scan_overflow_split in Hs. destruct Hs as (H1 & d & H2).
  exists (firstn needed pipe). split; [exact H1|]. split; [apply firstn_skipn|]. split; [exists d; exact H2|].
  split.
  - rewrite firstn_length.
    assert (needed <= mc - length batch).
    { subst needed. match goal with |- context [N.min _ ?x] => generalize x end. intros; lia. }
    lia.
  - intros Hl. rewrite skipn_length in Hl. apply Nat.ltb_lt in Hn.
    destruct pipe; [now rewrite firstn_nil|]. cbn [length] in Hl. lia.
Qed.

(* Whatever the branch: the batch is a prefix b0 of the carry-over followed by a prefix d of the
   pipe; o, the next messages of the pipe, were pulled as well and go behind c1, what is left of the
   carry-over. Only the pinned commit pulls from the pipe while c1 is not empty. Every theorem about
   one activation is list algebra on this. *)
Inductive assembled g c pending (carry pipe b c' p' : list M) : Prop :=
| Assembled b0 c1 d o :
    carry = b0 ++ c1 -> pipe = d ++ o ++ p' -> b = b0 ++ d -> c' = c1 ++ o ->
    (c1 = [] \/ d ++ o = [] \/ g = false /\ topup_over_carry c pending (carry, pipe) = true) ->
    length (b0 ++ d ++ o) <= (if gate_open c pending then Nat.max 1 (max_count_of c pending) else 0) ->
    (gate_open c pending = true -> 1 <= max_count_of c pending ->
     (carry <> [] -> b0 <> []) /\ (carry = [] -> pipe <> [] -> d <> [])) ->
    assembled g c pending carry pipe b c' p'.

Lemma assemble_shape g c pending carry pipe b c' p' :
  assemble_gen g c pending (carry, pipe) = (b, (c', p')) -> assembled g c pending carry pipe b c' p'.
Proof.
  unfold Batch.assemble_gen. intros H.
  destruct (gate_open c pending) eqn:Hgate.
  2:{ inversion H; subst. apply Assembled with (b0 := []) (c1 := c') (d := []) (o := []);
        rewrite ?Hgate; auto using app_nil_r; discriminate. }
  set (mc := max_count_of c pending) in *.
  destruct carry as [|c0 carry].
  - destruct pipe as [|first rest].
    { inversion H; subst. apply Assembled with (b0 := []) (c1 := []) (d := []) (o := []);
        rewrite ?Hgate; auto. apply Nat.le_0_l. }
    unfold Batch.assemble_recv in H. fold mc in H.
    destruct (top_up c mc [first] (wsize first) rest) as [[b' o] q'] eqn:Ht.
    inversion H; subst b' o q'. apply top_up_split in Ht. destruct Ht as (pulled & H1 & H2 & (d & ->) & H4 & _).
    rewrite <- app_assoc in H1. apply app_inv_head in H1. subst pulled rest.
    apply Assembled with (b0 := []) (c1 := []) (d := (first :: d)) (o := c'); rewrite ?Hgate; auto.
    + cbn. now rewrite <- app_assoc.
    + split; [auto | discriminate].
  - unfold Batch.assemble_carry_gen in H. fold mc in H.
    destruct (drain_carry mc (b_physical c) [] 0%N (c0 :: carry)) as [[b0 t0] c1] eqn:Hd.
    assert (Hne : 1 <= mc -> b0 <> []).
    { intros Hmc. apply drain_carry_first in Hd; [|exact Hmc]. destruct Hd as (x & ->). discriminate. }
    pose proof Hd as Hd'. apply drain_carry_split in Hd'. destruct Hd' as (Hd' & _ & Hl). cbn [app length] in Hd', Hl.
    destruct (g && negb (match c1 with [] => true | _ => false end)) eqn:Hg.
    + inversion H; subst b0 c1 p'. apply Assembled with (b0 := b) (c1 := c') (d := []) (o := []);
        rewrite ?Hgate, ?app_nil_r; auto.
      * lia.
      * split; [auto | discriminate].
    + destruct (top_up c mc b0 t0 pipe) as [[b' o] q'] eqn:Ht.
      inversion H; subst b' c' q'. pose proof Ht as Ht'. apply top_up_split in Ht'.
      destruct Ht' as (pulled & H1 & H2 & (d & ->) & H4 & H5).
      rewrite <- app_assoc in H1. apply app_inv_head in H1. subst pulled.
      apply Assembled with (b0 := b0) (c1 := c1) (d := d) (o := o); rewrite ?Hgate; auto.
      * rewrite <- H2. symmetry. apply app_assoc.
      * destruct c1 as [|x c1]; [left; reflexivity | right].
        destruct g; [discriminate|].
        destruct (length p' =? length pipe) eqn:E; [left; apply H5, Nat.eqb_eq, E | right; split; [reflexivity|]].
        unfold Batch.topup_over_carry. fold mc. rewrite Hgate, Hd, Ht, E. reflexivity.
      * rewrite app_length. lia.
      * split; [auto | discriminate].
Qed.

(* Loss-free and duplication-free in EVERY case, including the failing class of the order
   theorem: batch, new carry-over and remaining pipe are a permutation of what was there. *)
Theorem assemble_perm g c pending st b st' :
  assemble_gen g c pending st = (b, st') ->
  Permutation (b ++ fst st' ++ snd st') (fst st ++ snd st).
Proof.
  destruct st as [carry pipe], st' as [c' p']. intros H.
  destruct (assemble_shape _ _ _ _ _ H) as [b0 c1 d o -> -> -> -> _ _ _].
  cbn [fst snd]. rewrite <- !app_assoc. apply Permutation_app_head, Permutation_app_swap_app.
Qed.

(* ORDER: batch ++ carry' ++ rest_of_pipe = carry ++ pipe, for every size mix and every limit:
   unconditionally for the code (guard = true); for the pinned commit (guard = false) whenever the
   activation is not "top up from the pipe while older messages stay in carry-over". *)
Theorem assemble_order_gen g c pending st b st' :
  assemble_gen g c pending st = (b, st') ->
  g = true \/ topup_over_carry c pending st = false ->
  b ++ fst st' ++ snd st' = fst st ++ snd st.
Proof.
  destruct st as [carry pipe], st' as [c' p']. intros H Hc.
  destruct (assemble_shape _ _ _ _ _ H) as [b0 c1 d o -> -> -> -> Hord _ _].
  cbn [fst snd]. destruct Hord as [-> | [Hdo | [-> Ht]]].
  - rewrite app_nil_r, <- !app_assoc. reflexivity.
  - apply app_eq_nil in Hdo. destruct Hdo as [-> ->]. rewrite !app_nil_r, <- !app_assoc. reflexivity.
  - destruct Hc; congruence.
Qed.

Corollary assemble_order c pending st b st' :
  assemble c pending st = (b, st') -> b ++ fst st' ++ snd st' = fst st ++ snd st.
Proof. intros H. eapply assemble_order_gen; [exact H | left; reflexivity]. Qed.

Lemma max_count_pos c pending : 1 <= b_count c -> 1 <= max_count_of c pending.
Proof. unfold Batch.max_count_of. lia. Qed.

(* progress: with the gate open and something queued, the OLDEST queued message is sent in this
   batch whatever its size (also when it is larger than every ceiling), so nothing starves *)
Theorem batch_nonempty_progress g c pending carry pipe hd tl b st' :
  1 <= b_count c -> gate_open c pending = true -> carry ++ pipe = hd :: tl ->
  assemble_gen g c pending (carry, pipe) = (b, st') -> exists d, b = hd :: d.
Proof.
  destruct st' as [c' p']. intros Hcnt Hg Hq H.
  destruct (assemble_shape _ _ _ _ _ H) as [b0 c1 d o -> -> -> _ _ _ Hhd].
  destruct (Hhd Hg (max_count_pos c pending Hcnt)) as [Hb0 Hd].
  destruct b0 as [|x b0].
  - destruct c1; [|now elim Hb0]. cbn [app] in *.
    destruct d as [|x d]; [exfalso; apply Hd; [| rewrite Hq |]; easy |].
    inversion Hq. eexists. reflexivity.
  - inversion Hq. eexists. reflexivity.
Qed.

Lemma gate_budget c pending :
  (if gate_open c pending then Nat.max 1 (max_count_of c pending) else 0) <= hwm_of c - pending.
Proof.
  unfold Batch.gate_open, Batch.max_count_of. destruct (Nat.ltb_spec pending (hwm_of c)); lia.
Qed.

(* the HWM budget (C14): what the egress buffer holds plus the carry-over never exceeds SNDHWM, and
   the pipe only shrinks *)
Lemma assemble_budget c pending carry pipe b c' p' :
  assemble c pending (carry, pipe) = (b, (c', p')) ->
  pending + length carry <= hwm_of c ->
  pending + length b + length c' <= hwm_of c /\ length p' <= length pipe.
Proof.
  intros H Hinv.
  destruct (assemble_shape _ _ _ _ _ H) as [b0 c1 d o -> -> -> -> Hord Hl _].
  apply Nat.le_trans with (p := hwm_of c - pending) in Hl; [|apply gate_budget].
  destruct Hord as [-> | [Hdo | [[=] _]]]; [|apply app_eq_nil in Hdo; destruct Hdo as [-> ->]];
    rewrite !app_length in *; cbn [length] in *; lia.
Qed.

Lemma concat_emit (b : list M) bs : concat (match b with [] => bs | _ :: _ => b :: bs end) = b ++ concat bs.
Proof. destruct b; reflexivity. Qed.

Lemma run_gen_order g c : forall evs st bs st',
  run_gen g c st evs = (bs, st') ->
  (g = false -> run_clean c st evs = true) ->
  concat bs ++ fst st' ++ snd st' = fst st ++ snd st ++ accepted evs.
Proof.
  induction evs as [|[m|p] evs IH]; intros st bs st' H Hc; cbn [Batch.run_gen Batch.run_clean accepted] in *.
  - inversion H; subst. cbn. now rewrite app_nil_r.
  - rewrite (IH _ _ _ H Hc). cbn [fst snd]. rewrite <- !app_assoc. reflexivity.
  - destruct (assemble_gen g c p st) as [b st1] eqn:Ha.
    destruct (run_gen g c st1 evs) as [bs1 st2] eqn:Hr. inversion H; subst.
    rewrite concat_emit, <- app_assoc, (IH _ _ _ Hr), !app_assoc.
    + f_equal. rewrite <- !app_assoc. eapply assemble_order_gen; [exact Ha|].
      destruct g; [left; reflexivity | right]. specialize (Hc eq_refl). apply andb_prop in Hc.
      now apply negb_true_iff.
    + intros ->. specialize (Hc eq_refl). apply andb_prop in Hc.
      unfold Batch.assemble_legacy in Hc. rewrite Ha in Hc. apply Hc.
Qed.

Theorem assemble_run_order c evs bs st' :
  run c ([], []) evs = (bs, st') -> concat bs ++ fst st' ++ snd st' = accepted evs.
Proof. intros H. apply run_gen_order in H; [exact H | discriminate]. Qed.

Theorem assemble_run_order_legacy_outside c evs bs st' :
  run_legacy c ([], []) evs = (bs, st') -> run_clean c ([], []) evs = true ->
  concat bs ++ fst st' ++ snd st' = accepted evs.
Proof. intros H Hc. apply run_gen_order in H; [exact H | intros _; exact Hc]. Qed.

(* loss-free and duplication-free for every run, clean or not *)
Theorem assemble_run_perm g c : forall evs st bs st',
  run_gen g c st evs = (bs, st') ->
  Permutation (concat bs ++ fst st' ++ snd st') (fst st ++ snd st ++ accepted evs).
Proof.
  induction evs as [|[m|p] evs IH]; intros st bs st' H; cbn [Batch.run_gen accepted] in *.
  - inversion H; subst. cbn. now rewrite app_nil_r.
  - rewrite (IH _ _ _ H). cbn [fst snd]. rewrite <- !app_assoc. reflexivity.
  - destruct (assemble_gen g c p st) as [b st1] eqn:Ha.
    destruct (run_gen g c st1 evs) as [bs1 st2] eqn:Hr. inversion H; subst.
    rewrite concat_emit, <- app_assoc, (IH _ _ _ Hr), !app_assoc.
    apply Permutation_app_tail. rewrite <- app_assoc. exact (assemble_perm _ _ _ _ Ha).
Qed.

End BatchProofs.

(* The configuration under which the legacy code (`guard_topup = false`: no `core_carryover.is_empty()`
   conjunct) violates the order; the two refutations are in Props/C01.v (C01_assemble_order_legacy_refuted,
   C01_assemble_run_order_legacy_refuted). *)
Definition legacy_cfg : bcfg := {| b_sndhwm := 1000; b_count := 128; b_logical := 64; b_physical := 4096 |}.

(* the run of C01_assemble_run_order_legacy_refuted (and one more cycle) on the code as it is now *)
Example assemble_run_fixed_example :
  let evs := [BSend 20; BSend 5009; BSend 20; BSend 5009; BSend 20; BCycle N 0; BCycle N 0;
              BSend 21; BSend 22; BCycle N 0; BCycle N 0; BCycle N 0; BCycle N 0]%N in
  let '(bs, st) := run (fun x : N => x) legacy_cfg ([], []) evs in
  st = ([], []) /\ concat bs = accepted evs.
Proof. vm_compute. auto. Qed.
