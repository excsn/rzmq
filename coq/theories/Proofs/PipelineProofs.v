(* Composition of the stage theorems into the end-to-end statement of C01 (Model/Pipeline.v). *)
From Coq Require Import Permutation.
From RZ Require Import Base.Prelude Base.Stepper Model.Codec Proofs.CodecProofs Model.Engine Proofs.EngineProofs
  Model.Actor Proofs.ActorProofs Model.Batch Proofs.BatchProofs Model.Egress Proofs.EgressProofs
  Model.IngressDriver Proofs.IngressDriverProofs Model.Pipeline.
Local Open Scope N_scope.

Lemma einv_flat done e out hd : EInv done e out hd [] -> out ++ eg_flat e = concat hd.
Proof.
  intros [Hne Hh Ho Hd Hp Hm Ht]. apply Permutation_sym, Permutation_nil in Hp.
  rewrite Ho, <- app_assoc. unfold eg_flat. fold (cat (e_chunks e)). rewrite firstn_skipn, <- cat_app.
  rewrite cat_data_only by exact Hp. rewrite Hd. reflexivity.
Qed.

Lemma deliveries_deliver ms : deliveries (map ODeliver ms) = ms.
Proof. unfold deliveries. induction ms as [|m ms IH]; [reflexivity|]. cbn. f_equal. exact IH. Qed.

Lemma prefix_deliveries o ms : prefix o (map ODeliver ms) -> prefix (deliveries o) ms.
Proof.
  intros [d Hd]. exists (deliveries d). rewrite <- deliveries_app, <- Hd. symmetry. apply deliveries_deliver.
Qed.

Section Ingress.
Variable cap : nat.

Lemma enq_all_out ms : forall ib q last del ent,
  enq_all cap (Build_istate ib q false POut last del ent) ms =
  Build_istate (ib ++ ms) q false POut last del (ent ++ ms).
Proof.
  unfold enq_all. induction ms as [|m ms IH]; intros; cbn [fold_left].
  - now rewrite !app_nil_r.
  - cbn [i_step i_pc i_fut i_ib i_q i_last i_delivered i_entered]. rewrite IH, <- !app_assoc. reflexivity.
Qed.

(* what the read arm does to the ingress side: it runs with an empty ingress buffer and no driver,
   drops a suspended send and queues the decoded messages *)
Lemma read_enq (s : istate msg) ms : i_ib s = [] -> i_pc s = POut ->
  enq_all cap (i_step mweight cap true s (DCancel msg)) ms =
  Build_istate ms (i_q s) false POut (i_last s) (i_delivered s) (i_entered s ++ ms).
Proof. destruct s. cbn. intros -> ->. apply enq_all_out. Qed.
End Ingress.

Section Compose.
Variable bc : bcfg.
Variable ec : ecfg.
Variable cap : nat.
Variable g0 : engine.

Record PInv (s : pstate) : Prop := {
  v_batch : concat (p_batches s) ++ p_carry s ++ p_pipe s = p_accepted s;
  v_eg : exists done hd, EInv done (p_eg s) (p_written s) hd []
                         /\ concat hd = concat (map enc_contiguous (p_batches s));
  v_wire : concat (map fst (p_reads s)) ++ p_wire s = p_written s;
  v_eng : p_eng s = fst (nets ec g0 (p_reads s));
  v_ent : i_entered (p_in s) = deliveries (snd (nets ec g0 (p_reads s)));
  v_in : i_delivered (p_in s) ++ i_q (p_in s) ++ i_ib (p_in s) = i_entered (p_in s)
}.

Lemma pinv_init : PInv (p_init g0).
Proof.
  constructor; cbn; try reflexivity. exists [], []. split; [exact einv_new | reflexivity].
Qed.

Lemma pinv_step s e : PInv s -> PInv (p_step bc ec cap s e).
Proof.
  intros [Hb Heg Hw Hen Hent Hin]. destruct e as [m | | n | k t | ie]; cbn [p_step].
  - (* send *)
    constructor; cbn [p_carry p_pipe p_eg p_wire p_eng p_in p_accepted p_batches p_written p_reads]; try assumption.
    rewrite <- Hb, <- !app_assoc. reflexivity.
  - (* batch assembly *)
    destruct (assemble wsize bc (N.to_nat (e_msgs (p_eg s))) (p_carry s, p_pipe s)) as [b [c' p']] eqn:Ha.
    destruct b as [|b0 b]; [constructor; assumption|].
    apply assemble_order in Ha. cbn [fst snd] in Ha.
    constructor; cbn [p_carry p_pipe p_eg p_wire p_eng p_in p_accepted p_batches p_written p_reads]; try assumption.
    + rewrite concat_app. cbn [concat]. rewrite app_nil_r, <- app_assoc, Ha. exact Hb.
    + destruct Heg as (done & hd & HI & Hhd).
      destruct (einv_step done (p_eg s) (p_written s) hd [] (EPush (enc_contiguous (b0 :: b)) (N.of_nat (length (b0 :: b)))) HI)
        as (e' & out' & done' & Hs & HI').
      cbn [eg_step] in Hs. inversion Hs; subst e' out'.
      exists done', (hd ++ pushed_data [EPush (enc_contiguous (b0 :: b)) (N.of_nat (length (b0 :: b)))]).
      split; [cbn [app] in HI'; exact HI'|].
      rewrite map_app, !concat_app, Hhd. f_equal. cbn [map concat]. rewrite app_nil_r.
      destruct (enc_contiguous (b0 :: b)); cbn [pushed_data concat]; rewrite ?app_nil_r; reflexivity.
  - (* write *)
    constructor; cbn [p_carry p_pipe p_eg p_wire p_eng p_in p_accepted p_batches p_written p_reads]; try assumption.
    + destruct Heg as (done & hd & HI & Hhd).
      destruct (einv_step done (p_eg s) (p_written s) hd [] (EWrite n) HI) as (e' & out' & done' & Hs & HI').
      cbn [eg_step] in Hs. inversion Hs; subst e' out'. exists done', hd. split; [|exact Hhd].
      cbn [pushed_data pushed_prio] in HI'. rewrite !app_nil_r in HI'. exact HI'.
    + rewrite app_assoc, Hw. reflexivity.
  - (* read *)
    assert (HP : PInv s) by (constructor; assumption).
    destruct (i_ib (p_in s)) eqn:Hib; [|exact HP].
    destruct (i_pc (p_in s)) eqn:Hpc; try exact HP.
    destruct (e_net ec (p_eng s) (firstn k (p_wire s)) t) as [g' o] eqn:He.
    assert (Hn : nets ec g0 (p_reads s ++ [(firstn k (p_wire s), t)]) =
                 (g', snd (nets ec g0 (p_reads s)) ++ o)) by (rewrite nets_snoc, <- Hen, He; reflexivity).
    rewrite read_enq by assumption. rewrite app_nil_r in Hin.
    constructor; cbn [p_carry p_pipe p_eg p_wire p_eng p_in p_accepted p_batches p_written p_reads i_ib i_q i_delivered i_entered];
      try assumption.
    + rewrite map_app, concat_app. cbn [map concat fst]. rewrite app_nil_r, <- app_assoc, firstn_skipn. exact Hw.
    + rewrite Hn. reflexivity.
    + rewrite Hn. cbn [snd]. rewrite deliveries_app, Hent. reflexivity.
    + rewrite app_assoc, Hin. reflexivity.
  - (* ingress side *)
    destruct ie as [x| | | |]; [constructor; assumption| | | |];
      (constructor; cbn [p_carry p_pipe p_eg p_wire p_eng p_in p_accepted p_batches p_written p_reads]; try assumption;
       [etransitivity; [apply i_step_no_enq; discriminate | exact Hent] | apply i_step_conserves, Hin]).
Qed.

Lemma pinv_run evs : PInv (p_run bc ec cap g0 evs).
Proof. unfold p_run. apply fold_left_inv; [intros s e; apply pinv_step | apply pinv_init]. Qed.

(* END TO END. The receiver's engine is in the Data phase with nothing buffered (handshake done);
   every accepted message is a well-formed data message. Then for EVERY schedule of stage
   activations, option vector (HWMs, batch count, byte ceilings, queue capacity), message size mix,
   write sizes, read sizes and ingress-driver cancellations:
   (a) at every moment what recv() has returned is a prefix of what send() accepted
       (nothing duplicated, corrupted, reordered or invented), and
   (b) when the schedule ends with nothing in flight, it is exactly the accepted sequence. *)
Theorem end_to_end evs :
  e_phase (g_st g0) = PData -> e_partial (g_st g0) = [] -> g_acc g0 = [] ->
  let s := p_run bc ec cap g0 evs in
  Forall (wf_msg ec) (p_accepted s) ->
  prefix (p_received s) (p_accepted s) /\ (p_quiescent s -> p_received s = p_accepted s).
Proof.
  intros Hph Hpa Hacc s Hwf.
  destruct (pinv_run evs) as [Hb Heg Hw Hen Hent Hin]. fold s in Hb, Heg, Hw, Hen, Hent, Hin.
  destruct Heg as (done & hd & HI & Hhd). pose proof (einv_flat _ _ _ _ HI) as Hflat.
  assert (Hq : quiescent ec g0) by (unfold quiescent, estep; rewrite Hph, Hacc; reflexivity).
  set (ms := concat (p_batches s)).
  assert (Hms : prefix ms (p_accepted s)) by (exists (p_carry s ++ p_pipe s); symmetry; exact Hb).
  assert (Hwfms : Forall (wf_msg ec) ms).
  { destruct Hms as [d Hd]. rewrite Hd in Hwf. apply Forall_app in Hwf. tauto. }
  set (E := concat (map enc_codec (concat ms))).
  assert (HE : concat (map enc_contiguous (p_batches s)) = E).
  { subst E ms. unfold enc_contiguous. clear. induction (p_batches s) as [|b l IH]; [reflexivity|].
    cbn [map concat]. rewrite IH, !concat_app, map_app, concat_app. reflexivity. }
  set (B := concat (map fst (p_reads s))).
  (* what the engine emitted for the reads = what it emits for B in one piece *)
  assert (Hone : snd (nets ec g0 (p_reads s)) = snd (e_net ec g0 B 0)) by (apply nets_one_read, Hq).
  (* B is a prefix of E *)
  assert (HBE : exists rest, E = B ++ rest).
  { exists (p_wire s ++ eg_flat (p_eg s)). rewrite app_assoc. fold B in Hw. rewrite Hw, Hflat, Hhd. symmetry. exact HE. }
  destruct HBE as [rest HBE].
  assert (Hfull : snd (e_net ec g0 E 0) = map ODeliver ms) by (apply data_phase_one_read; assumption).
  assert (Hpre : prefix (i_entered (p_in s)) ms).
  { rewrite Hent, Hone. apply prefix_deliveries. rewrite <- Hfull, HBE.
    apply engine_outputs_prefix_monotone. exact Hq. }
  split.
  - eapply prefix_trans; [|exact Hms]. eapply prefix_trans; [|exact Hpre].
    unfold p_received. exists (i_q (p_in s) ++ i_ib (p_in s)). symmetry. exact Hin.
  - intros (Hc & Hp & Hch & Hwi & Hib & Hiq). unfold p_received.
    rewrite Hib, Hiq, !app_nil_r in Hin. rewrite Hin, Hent, Hone.
    assert (B = E) as ->.
    { rewrite Hwi, app_nil_r in Hw. fold B in Hw. rewrite Hw.
      unfold eg_flat in Hflat. rewrite Hch in Hflat. cbn in Hflat. rewrite skipn_nil, app_nil_r in Hflat.
      rewrite Hflat, Hhd. exact HE. }
    rewrite Hfull, deliveries_deliver. subst ms. rewrite Hc, Hp, !app_nil_r in Hb. exact Hb.
Qed.

End Compose.
