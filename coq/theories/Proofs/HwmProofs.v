(* Model/Hwm.v (property C14).
   The twelve send methods are one table (`send_path_table`); the SNDTIMEO theorems (`snd_positive_all`,
   `snd_minus1_fallback_refuted`, `no_spurious_all`) go by cases on the table, not on the methods.  The recv
   engines likewise (`recv_path_table`); PUSH / DEALER routing sits on top of the tables.
   The buffer bounds are three invariants kept by every admissible event: `HInv` for the four buffers of a
   tcp / ipc connection, `NInvB` for the list-level inproc model (Model/Inproc.v), `RInv` for the count-level
   inproc reader with the sender inside its drain.  They do not depend on the timing part. *)
From RZ Require Import Base.Prelude Base.Stepper Model.Codec Model.Engine Model.Actor
  Model.Batch Model.Egress Model.IngressDriver Model.Pipeline Model.Inproc Model.Hwm.
From RZ Require Import Proofs.BatchProofs Proofs.EgressProofs Proofs.IngressDriverProofs Proofs.PipelineProofs
  Proofs.InprocProofs.
Local Open Scope N_scope.

Lemma no_fallback v : is_sync v = false -> fallback v = None -> v = VScaOwned.
Proof. destruct v; try discriminate; reflexivity. Qed.

Lemma expiry_cases v : expiry_answer v = ATimeout \/ expiry_answer v = AWouldBlock.
Proof. destruct v; auto. Qed.

Lemma try_of_full cap len : (cap <= len)%nat -> try_of cap len false = TsFull.
Proof. intros H. unfold try_of. destruct (Nat.ltb_spec len cap); [lia | reflexivity]. Qed.

Section Timed.
Variable fire : N -> N.
Variable slack : N.
(* tokio's timer: fires no earlier than asked, and within `slack` *)
Hypothesis fire_law : forall d, d <= fire d /\ fire d <= d + slack.

Lemma tokio_timeout_cases d w :
  match tokio_timeout fire d w with
  | FutOk t => w = WRoom t /\ t <= fire d
  | FutErr t => w = WClosed t /\ t <= fire d
  | Elapsed t => t = fire d
  end.
Proof. unfold tokio_timeout. destruct w; try destruct (N.leb_spec t (fire d)); auto. Qed.

(* a wait for room bounded by a timer of d ms, as every method but one does it *)
Definition timed_wait (v : variant) (d : N) (w : waitres) : outcome :=
  match tokio_timeout fire d w with
  | FutOk t => Ret AOk t Enqueued
  | FutErr t => Ret AClosed t Dropped
  | Elapsed t => Ret (expiry_answer v) t Dropped
  end.

(* All twelve methods in one table: a refusal at once (pipe closed; pipe full and the method is
   the synchronous fast path or SNDTIMEO = 0) hands the message back if the signature can, a full
   pipe otherwise is a timed wait of SNDTIMEO, or of the fall-back that stands in for -1, and
   ScaConnectionIface::send_multipart_owned alone waits without a timer. *)
Lemma send_path_table v ts s w :
  send_path fire v ts s w =
  let back := if can_return v then Returned else Dropped in
  match ts with
  | TsOk => Ret AOk 0 Enqueued
  | TsClosed => Ret AClosed 0 back
  | TsFull =>
      if is_sync v || is_zero s then Ret AWouldBlock 0 back
      else match (match s with Some d => Some d | None => fallback v end) with
           | Some d => timed_wait v d w
           | None => match w with WRoom t => Ret AOk t Enqueued | WClosed t => Ret AClosed t Dropped | WNever => Hang end
           end
  end.
Proof.
  clear fire_law slack.
  destruct v, ts; try reflexivity; destruct s as [[|p]|]; try reflexivity;
    unfold send_path, inproc_send_message, uring_send_message, default_send_message, inproc_send_multipart, timed_wait;
    cbn -[tokio_timeout]; destruct (tokio_timeout fire _ w); reflexivity.
Qed.

Lemma positive_path v d w : is_sync v = false -> 0 < d -> send_path fire v TsFull (Some d) w = timed_wait v d w.
Proof. clear fire_law slack. intros Hs Hd. rewrite send_path_table, Hs. destruct d; [lia | reflexivity]. Qed.

Lemma minus1_path_fallback v F w : is_sync v = false -> fallback v = Some F ->
  send_path fire v TsFull None w = timed_wait v F w.
Proof. intros Hs HF. rewrite send_path_table, Hs, HF. reflexivity. Qed.

Lemma minus1_path_sca_owned w :
  sca_send_multipart_owned fire TsFull None w =
  match w with WRoom t => Ret AOk t Enqueued | WClosed t => Ret AClosed t Dropped | WNever => Hang end.
Proof. reflexivity. Qed.

Lemma timed_wait_room v d t : t <= fire d -> timed_wait v d (WRoom t) = Ret AOk t Enqueued.
Proof. clear. intros H. unfold timed_wait, tokio_timeout. destruct (N.leb_spec t (fire d)); [reflexivity | lia]. Qed.

Lemma timed_wait_late v d t : fire d < t -> timed_wait v d (WRoom t) = Ret (expiry_answer v) (fire d) Dropped.
Proof. clear. intros H. unfold timed_wait, tokio_timeout. destruct (N.leb_spec t (fire d)); [lia | reflexivity]. Qed.

(* what a call with SNDTIMEO = d > 0 on a full pipe may do *)
Definition positive_spec (v : variant) (d : N) (w : waitres) (o : outcome) : Prop :=
  match o with
  | Hang => False
  | Ret AOk t f => f = Enqueued /\ w = WRoom t /\ t <= d + slack
  | Ret AClosed t f => f = Dropped /\ w = WClosed t /\ t <= d + slack
  | Ret (ATimeout as a) t f | Ret (AWouldBlock as a) t f =>
      (a = ATimeout \/ a = AWouldBlock) /\ a = expiry_answer v /\ f = Dropped /\ d <= t /\ t <= d + slack
  end.

Lemma timed_wait_spec v d w : positive_spec v d w (timed_wait v d w).
Proof.
  unfold timed_wait. pose proof (tokio_timeout_cases d w) as H. pose proof (fire_law d).
  destruct (tokio_timeout fire d w); cbn [positive_spec].
  - destruct H. repeat split; auto; lia.
  - destruct H. repeat split; auto; lia.
  - subst t. destruct (expiry_cases v) as [-> | ->]; repeat split; auto; lia.
Qed.

Theorem snd_positive_all v d w : is_sync v = false -> 0 < d ->
  positive_spec v d w (send_path fire v TsFull (Some d) w).
Proof. intros Hs Hd. rewrite positive_path by assumption. apply timed_wait_spec. Qed.

(* SNDTIMEO = -1: "no failure while the peer may still drain" *)
Definition minus1_spec (v : variant) : Prop :=
  forall w, (forall t, w <> WClosed t) ->
  match send_path fire v TsFull None w with Ret a _ _ => a = AOk | Hang => True end.

(* every other waiting variant gives up after its fall-back although the peer is alive and would
   have drained one millisecond later *)
Theorem snd_minus1_fallback_refuted v : is_sync v = false -> v <> VScaOwned ->
  exists F w, fallback v = Some F /\ (forall t, w <> WClosed t) /\
              send_path fire v TsFull None w = Ret (expiry_answer v) (fire F) Dropped
              /\ expiry_answer v <> AOk.
Proof.
  clear. intros Hs Hv. destruct (fallback v) as [F|] eqn:HF; [|elim Hv; apply no_fallback; assumption].
  exists F, (WRoom (fire F + 1)). split; [reflexivity|]. split; [discriminate|].
  rewrite (minus1_path_fallback v F), timed_wait_late by (assumption || lia).
  split; [reflexivity|]. destruct (expiry_cases v) as [-> | ->]; discriminate.
Qed.

(* no spurious success, nothing half-done: for EVERY variant, pipe state, SNDTIMEO and oracle *)
Definition immediate_refusal (v : variant) (ts : trysend) (s : timeo) : bool :=
  match ts with
  | TsOk => false
  | TsClosed => true
  | TsFull => is_sync v || is_zero s
  end.

Definition no_spurious_spec (v : variant) (ts : trysend) (s : timeo) (w : waitres) (o : outcome) : Prop :=
  match o with
  | Ret AOk t f => f = Enqueued /\ ((ts = TsOk /\ t = 0) \/ (ts = TsFull /\ w = WRoom t))
  | Ret _ t f => f <> Enqueued /\ ts <> TsOk
                 /\ (f = Returned <-> (can_return v = true /\ immediate_refusal v ts s = true))
                 /\ (f = Returned -> t = 0)
  | Hang => v = VScaOwned /\ ts = TsFull /\ s = None /\ w = WNever
  end.

(* every error return: the message comes back exactly from an immediate refusal by a method that can *)
Lemma no_spurious_err v ts s w a t f : a <> AOk -> ts <> TsOk ->
  f = (if can_return v && immediate_refusal v ts s then Returned else Dropped) ->
  (immediate_refusal v ts s = true -> t = 0) -> no_spurious_spec v ts s w (Ret a t f).
Proof.
  clear. intros Ha Hts -> Ht.
  destruct a; [congruence| | |]; cbn [no_spurious_spec];
    (destruct (can_return v), (immediate_refusal v ts s); cbn [andb];
     repeat split; auto; try discriminate; intros [? ?]; discriminate).
Qed.

Theorem no_spurious_all v ts s w : no_spurious_spec v ts s w (send_path fire v ts s w).
Proof.
  clear fire_law slack. rewrite send_path_table. cbv zeta. destruct ts.
  - cbn. auto.
  - destruct (is_sync v || is_zero s) eqn:Hz.
    { apply no_spurious_err; [discriminate | discriminate | cbn; rewrite Hz, andb_true_r; reflexivity | auto]. }
    assert (Hno : forall a t, a <> AOk -> no_spurious_spec v TsFull s w (Ret a t Dropped)).
    { intros a t Ha. apply no_spurious_err; [exact Ha | discriminate | |]; cbn; rewrite Hz, ?andb_false_r; easy. }
    apply orb_false_elim in Hz. destruct Hz as [Hs Hz].
    destruct (match s with Some d => Some d | None => fallback v end) as [d|] eqn:Hd.
    + unfold timed_wait. pose proof (tokio_timeout_cases d w) as H.
      destruct (tokio_timeout fire d w); [destruct H; cbn; auto | apply Hno; discriminate | apply Hno].
      destruct (expiry_cases v) as [-> | ->]; discriminate.
    + destruct s; [discriminate|]. destruct w; [cbn; auto | apply Hno; discriminate |].
      cbn. auto using no_fallback.
  - apply no_spurious_err; [discriminate | discriminate | cbn; rewrite andb_true_r; reflexivity | auto].
Qed.

(* send_message and send_multipart of one implementation are the same function *)
Lemma sca_message_is_multipart ts s w : sca_send_message fire ts s w = sca_send_multipart fire ts s w.
Proof. reflexivity. Qed.

Lemma timed_pop_cases d w :
  match timed_pop fire d w with
  | RRet AOk t p => p = true /\ w = PAt t /\ t <= d + slack
  | RRet AClosed t p => p = false /\ w = PClosedAt t /\ t <= d + slack
  | RRet ATimeout t p => p = false /\ d <= t /\ t <= d + slack
  | _ => False
  end.
Proof.
  pose proof (fire_law d). unfold timed_pop.
  destruct w; try destruct (N.leb_spec t (fire d)); repeat split; auto; lia.
Qed.

(* the four engines are one function, but for what counts as "already there" *)
Lemma recv_path_table v pre r tp w :
  recv_path fire v pre r tp w =
  if pre && negb (match v with RAddr => true | _ => false end) then RRet AOk 0 false
  else match r with
       | Some d => if d =? 0 then match tp with PItem => RRet AOk 0 true | PEmpty => RRet AWouldBlock 0 false end
                   else timed_pop fire d w
       | None => pop_forever w
       end.
Proof. destruct v, pre; reflexivity. Qed.

(* the three implementations as (fast path, blocking path) pairs *)
Inductive iface := ISca | IInproc | IUring.
Definition sync_of (i : iface) : trysend -> outcome :=
  match i with ISca => sca_try_sync | IInproc => inproc_try_sync | IUring => uring_try_sync end.
Definition owned_of (i : iface) : trysend -> timeo -> waitres -> outcome :=
  match i with
  | ISca => sca_send_multipart_owned fire
  | IInproc => inproc_send_multipart_owned fire
  | IUring => uring_send_multipart_owned fire
  end.
Definition owned_variant (i : iface) : variant :=
  match i with ISca => VScaOwned | IInproc => VInprocOwned | IUring => VUringOwned end.

(* PUSH / DEALER with one peer whose pipe is full at both try_sends *)
Definition route_full (i : iface) (s : timeo) (w : waitres) : outcome :=
  route_one (sync_of i) (owned_of i) TsFull TsFull s w.

(* then routing adds nothing to the blocking send: what it would drop the send has dropped already *)
Lemma route_full_owned i s w : route_full i s w = send_path fire (owned_variant i) TsFull s w.
Proof.
  clear fire_law slack.
  destruct i, s as [[|p]|]; try reflexivity; unfold route_full, route_one; cbn -[tokio_timeout];
    try destruct (tokio_timeout fire _ w); try destruct w; reflexivity.
Qed.

Lemma route_full_snd0 i w : route_full i (Some 0) w = Ret AWouldBlock 0 Returned.
Proof. destruct i; reflexivity. Qed.

(* a positive SNDTIMEO against a full pipe, for the three `_owned` methods: their timer ends in Timeout *)
Lemma owned_positive i d w : 0 < d ->
  match send_path fire (owned_variant i) TsFull (Some d) w with
  | Hang => False
  | Ret AOk t f => f = Enqueued /\ w = WRoom t /\ t <= d + slack
  | Ret AClosed t f => f = Dropped /\ w = WClosed t /\ t <= d + slack
  | Ret a t f => a = ATimeout /\ f = Dropped /\ d <= t /\ t <= d + slack
  end.
Proof.
  intros Hd. assert (Hs : is_sync (owned_variant i) = false) by (destruct i; reflexivity).
  pose proof (snd_positive_all (owned_variant i) d w Hs Hd) as P.
  assert (He : expiry_answer (owned_variant i) = ATimeout) by (destruct i; reflexivity).
  destruct (send_path fire (owned_variant i) TsFull (Some d) w) as [[] t f|]; cbn in P; rewrite ?He in P;
    intuition congruence.
Qed.

(* DEALER with no peer at all: the queue absorbs SNDHWM messages, then a positive SNDTIMEO waits
   on the queue's notifier, re-armed with the full duration after every wake-up: never early *)
Theorem dealer_queue_not_early hwm d : 0 < d -> forall wakes e pend a t f,
  dealer_queue fire hwm (Some d) e pend wakes = Ret a t f -> a <> AOk -> a = ATimeout /\ e + d <= t /\ f = Dropped.
Proof.
  intros Hd. pose proof (fire_law d) as Hf.
  induction wakes as [|[tw p] rest IH]; intros e pend a t f H Ha; cbn [dealer_queue] in H;
    destruct (pend <? hwm)%nat; try (inversion H; subst; congruence);
    destruct (N.eqb_spec d 0); try lia.
  - inversion H; subst. repeat split; auto; lia.
  - destruct (N.leb_spec tw (fire d)).
    + apply IH in H; [|exact Ha]. destruct H as (? & ? & ?). repeat split; auto.
      (* the wake-up came after tw >= 0, and the re-armed wait lasts a full d again *) lia.
    + inversion H; subst. repeat split; auto; lia.
Qed.

(* PushSocket's second timer, of the same duration, around the routing *)
Variable fire_o : N -> N.

Definition push_full (i : iface) (s : timeo) (w : waitres) : outcome :=
  push_send fire_o (fun s' => route_full i s' w) s.

(* Every connection object snapshots SNDTIMEO when the connection is made (command_processor.rs,
   inproc/mod.rs, pipe_manager.rs, main_loop.rs); PUSH and DEALER read the socket's CURRENT value for
   their own wrapper. `s_conn` = the value at connect time, `s_now` = the value at send time. *)
Definition push_late (i : iface) (s_conn s_now : timeo) (w : waitres) : outcome :=
  push_send fire_o (fun _ => route_full i s_conn w) s_now.

End Timed.

Section Buffers.
Variable bc : bcfg.
Variable ec : ecfg.
Variable cap : nat.     (* RCVHWM of the receiving socket: capacity of the per-pipe queue *)
Variable rd : nat.      (* messages decoded from one read *)
Variable g0 : engine.

Record HInv (s : pstate) : Prop := {
  h_pipe : (length (p_pipe s) <= hwm_of bc)%nat;
  h_egress : (N.to_nat (e_msgs (p_eg s)) + length (p_carry s) <= hwm_of bc)%nat;
  h_q : (length (i_q (p_in s)) <= cap)%nat;
  h_ib : (length (i_ib (p_in s)) <= rd)%nat
}.

Lemma hinv_init : HInv (p_init g0).
Proof. constructor; cbn; lia. Qed.

Lemma hinv_step s e : HInv s -> hadm bc ec rd s e -> HInv (p_step bc ec cap s e).
Proof.
  intros Hinv Ha. pose proof Hinv as [Hp He Hq Hi]. destruct e as [m| |n|k t|ie]; cbn [p_step].
  - cbn in Ha. constructor; cbn; auto. rewrite app_length. cbn. lia.
  - destruct (assemble wsize bc (N.to_nat (e_msgs (p_eg s))) (p_carry s, p_pipe s)) as [b [c' p']] eqn:E.
    destruct b as [|b0 bt]; [constructor; assumption|].
    apply assemble_budget in E; [|exact He]. destruct E as [E1 E2].
    constructor; cbn; auto; [lia|].
    match goal with |- context [eg_push ?e ?d ?c] => pose proof (eg_push_msgs_le e d c) end.
    cbn [length] in *. lia.
  - constructor; cbn; auto.
    match goal with |- context [eg_advance ?e ?k] => pose proof (eg_advance_msgs_le e k) end. lia.
  - destruct (i_ib (p_in s)) eqn:Eib; [|exact Hinv].
    destruct (i_pc (p_in s)) eqn:Epc; try exact Hinv.
    cbn in Ha. destruct (e_net ec (p_eng s) (firstn k (p_wire s)) t) as [g' o] eqn:En. cbn [snd] in Ha.
    rewrite read_enq by assumption. constructor; cbn [p_pipe p_eg p_carry p_in i_q i_ib]; auto.
  - destruct ie as [x| | | |]; [exact Hinv| | | |];
      (constructor; cbn [p_pipe p_eg p_carry p_in];
       [exact Hp | exact He | apply i_step_bounded; exact Hq |
        eapply Nat.le_trans; [apply i_step_no_enq; discriminate | exact Hi]]).
Qed.

Theorem hreach_inv s : hreach bc ec cap rd g0 s -> HInv s.
Proof. induction 1; [apply hinv_init | apply hinv_step; assumption]. Qed.

Lemma hrun_reach : forall evs s, hreach bc ec cap rd g0 s -> hrun_ok bc ec cap rd s evs = true ->
  hreach bc ec cap rd g0 (fold_left (p_step bc ec cap) evs s).
Proof.
  induction evs as [|e r IH]; intros s Hs Hok; cbn [fold_left]; [exact Hs|].
  cbn [hrun_ok] in Hok. apply andb_true_iff in Hok. destruct Hok as [Ha Hr].
  apply IH; [|exact Hr]. apply hr_step; [exact Hs|].
  destruct e; cbn [hadm hadm_b] in *; auto.
  - apply Nat.ltb_lt. exact Ha.
  - apply Nat.leb_le. exact Ha.
Qed.

End Buffers.

Section InprocBuffers.
Variable chan_cap cap rcvbatch : nat.

Definition n_staged (s : nstate) : nat := (length (n_out s) + length (fly_list s))%nat.

Record NInvB (s : nstate) : Prop := {
  nb_rx : (length (n_rx s) <= chan_cap)%nat;
  nb_staged : (n_staged s <= Nat.min (Nat.max rcvbatch 1) chan_cap)%nat;
  nb_q : (length (n_q s) <= cap)%nat
}.

Lemma ninvb_step s e : NInvB s -> NInvB (n_step chan_cap cap rcvbatch s e).
Proof.
  intros Hinv. pose proof Hinv as [Hr Hs Hq]. unfold n_staged, fly_list in Hs.
  destruct e as [b|extra| |]; cbn [n_step].
  - destruct (Nat.ltb_spec (length (n_rx s)) chan_cap); [|exact Hinv].
    constructor; unfold n_staged, fly_list; cbn [n_rx n_out n_fly n_q]; auto.
    rewrite app_length. cbn. lia.
  - destruct (n_out s) eqn:Eo; [|exact Hinv].
    destruct (n_fly s) eqn:Ef; [exact Hinv|].
    destruct (n_rx s) as [|b rest] eqn:Er; [exact Hinv|].
    set (k := Nat.min extra (rcvbatch - 1)).
    destruct (regroup (n_acc s) [] (b :: firstn k rest)) as [acc' out'] eqn:Eg.
    destruct (bulk cap (n_q s) out') as [q' out''] eqn:Eb.
    apply regroup_out_le in Eg. apply bulk_split in Eb. destruct Eb as (_ & B2 & B3).
    cbn [length] in *. rewrite firstn_length in Eg.
    constructor; unfold n_staged, fly_list; cbn [n_rx n_out n_fly n_q length].
    + rewrite skipn_length. lia.
    + subst k. lia.
    + lia.
  - destruct (n_fly s) as [x|] eqn:Ef.
    + destruct (Nat.ltb_spec (length (n_q s)) cap); [|exact Hinv].
      destruct (bulk cap (n_q s ++ [x]) (n_out s)) as [q' out'] eqn:Eb.
      apply bulk_split in Eb. destruct Eb as (_ & B2 & B3). rewrite app_length in *. cbn [length] in *.
      constructor; unfold n_staged, fly_list; cbn [n_rx n_out n_fly n_q length]; auto; lia.
    + destruct (n_out s) as [|x r] eqn:Eo; [exact Hinv|].
      constructor; unfold n_staged, fly_list; cbn [n_rx n_out n_fly n_q length] in *; auto; lia.
  - destruct (n_q s) as [|x r] eqn:Eq; [exact Hinv|].
    constructor; unfold n_staged, fly_list; cbn [n_rx n_out n_fly n_q length] in *; auto; lia.
Qed.

End InprocBuffers.

Section InprocInterleaved.
Variable chan_cap cap rcvbatch : nat.

Record RInv (s : rstate) : Prop := {
  ri_rx : (r_rx s <= chan_cap)%nat;
  ri_buf : (r_buf s + r_left s <= Nat.max rcvbatch 1)%nat;
  ri_staged : (r_staged s <= Nat.max rcvbatch 1)%nat;
  ri_excl : (0 < r_buf s -> r_staged s = 0)%nat;
  ri_q : (r_q s <= cap)%nat
}.

Lemma rinv_step s e : RInv s -> RInv (r_step chan_cap cap rcvbatch s e).
Proof.
  intros Hinv. pose proof Hinv as [H1 H2 H3 H4 H5]. destruct e; cbn [r_step].
  - destruct (Nat.ltb_spec (r_rx s) chan_cap); [|exact Hinv]. constructor; cbn; auto; lia.
  - destruct (r_rx s) as [|k] eqn:E1; [exact Hinv|]. destruct (r_buf s) eqn:E2; [|exact Hinv].
    destruct (r_staged s) eqn:E3; [|exact Hinv]. constructor; cbn; auto; lia.
  - destruct (r_rx s) as [|k] eqn:E1; [exact Hinv|]. destruct (r_left s) as [|l] eqn:E2; [exact Hinv|].
    destruct (r_buf s) as [|b] eqn:E3; [exact Hinv|]. constructor; cbn; try lia.
  - destruct (r_buf s) as [|b] eqn:E; [exact Hinv|]. constructor; cbn; try lia.
  - destruct (r_staged s) as [|k] eqn:E; [exact Hinv|]. destruct (Nat.ltb_spec (r_q s) cap); [|exact Hinv].
    constructor; cbn; try lia.
  - constructor; cbn; auto; lia.
Qed.

End InprocInterleaved.
