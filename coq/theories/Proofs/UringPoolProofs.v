(* SendBufferPool (Model/UringPool.v; property C20). `pool_wf`: the free list is duplicate-free and holds real ids,
   for EVERY history (double, stale and unknown releases included). `pool_cons`: free list and ghost holders
   partition the ids, for the histories in which every release gives back a ticket that is held (`pool_ghost`
   answers true); one step of the ghost is `ghost_held` / `ghost_ok`. *)
From RZ Require Import Base.Prelude Model.UringPool.
From Coq Require Import Permutation.

Lemma set_nth_length {X} (l : list X) i v : length (set_nth l i v) = length l.
Proof. revert i. induction l as [|h t IH]; intros [|i]; cbn; auto. Qed.

Lemma memb_In i l : memb i l = true <-> In i l.
Proof.
  unfold memb. rewrite existsb_exists. split.
  - intros (x & Hx & He). apply Nat.eqb_eq in He. subst. exact Hx.
  - intros H. exists i. split; [exact H | apply Nat.eqb_refl].
Qed.
Lemma memb_false i l : memb i l = false <-> ~ In i l.
Proof. rewrite <- memb_In. destruct (memb i l); split; congruence. Qed.

Lemma remove1_perm i l : In i l -> Permutation l (i :: remove1 i l).
Proof.
  induction l as [|h t IH]; [contradiction|]. intros H. cbn.
  destruct (Nat.eqb i h) eqn:E.
  - apply Nat.eqb_eq in E. subst. reflexivity.
  - destruct H as [->|H]; [rewrite Nat.eqb_refl in E; discriminate|].
    rewrite (IH H) at 1. apply perm_swap.
Qed.

Lemma tk_eqb_eq a b : tk_eqb a b = true <-> a = b.
Proof.
  unfold tk_eqb. rewrite andb_true_iff, !Nat.eqb_eq. destruct a, b; cbn. split.
  - intros [-> ->]. reflexivity.
  - intros H. inversion H. auto.
Qed.
Lemma hmem_In x l : hmem x l = true <-> In x l.
Proof.
  unfold hmem. rewrite existsb_exists. split.
  - intros (y & Hy & He). apply tk_eqb_eq in He. subst. exact Hy.
  - intros H. exists x. split; [exact H | apply tk_eqb_eq; reflexivity].
Qed.
Lemma hremove_perm x l : In x l -> Permutation (map snd l) (snd x :: map snd (hremove x l)).
Proof.
  induction l as [|h t IH]; [contradiction|]. intros H. cbn [hremove].
  destruct (tk_eqb x h) eqn:E.
  - apply tk_eqb_eq in E. subst. reflexivity.
  - destruct H as [->|H]; [assert (tk_eqb x x = true) by (apply tk_eqb_eq; reflexivity); congruence|].
    cbn [map]. rewrite (IH H) at 1. apply perm_swap.
Qed.

Lemma pool_acquire_lease p len : pool_acquire p len = (p, None) \/ pool_acquire p len = pool_lease p.
Proof.
  unfold pool_acquire, pool_lease. destruct len; [left; reflexivity|].
  destruct (p_inuse p); [left; reflexivity|]. destruct (p_free p); [left; reflexivity|].
  destruct (_ <? _); [left|right]; reflexivity.
Qed.

Lemma pool_run_fst p o os : fst (pool_run p (o :: os)) = fst (pool_run (fst (pool_step p o)) os).
Proof. cbn [pool_run]. destruct (pool_step p o) as [p1 r]. cbn [fst]. destruct (pool_run p1 os). reflexivity. Qed.

(* an id is never twice in the free list, only real ids are in it, and the table keeps its size:
   double, stale and unknown releases included *)
Definition pool_wf (n : nat) (p : pool) : Prop :=
  NoDup (p_free p) /\ Forall (fun i => i < n) (p_free p) /\ length (p_inuse p) = n.

Lemma pool_new_wf count cap : pool_wf (length (p_inuse (pool_new count cap))) (pool_new count cap).
Proof.
  unfold pool_new, pool_wf. destruct count as [|c]; [cbn; repeat constructor|].
  destruct cap as [|k]; [cbn; repeat constructor|]. cbn [p_free p_inuse]. rewrite repeat_length.
  repeat split; [apply seq_NoDup|]. apply Forall_forall. intros x Hx. apply in_seq in Hx. lia.
Qed.

Lemma pool_lease_wf n p : pool_wf n p -> pool_wf n (fst (pool_lease p)).
Proof.
  unfold pool_lease. destruct (p_free p) as [|id rest] eqn:E; [trivial|]. intros (Hn & Hf & Hl).
  rewrite E in Hn, Hf. unfold pool_wf. cbn [fst p_free p_inuse]. rewrite set_nth_length.
  apply NoDup_cons_iff in Hn. apply Forall_inv_tail in Hf. split; [apply Hn|split; assumption].
Qed.

Lemma pool_release_wf n p id : pool_wf n p -> pool_wf n (pool_release p id).
Proof.
  intros (Hn & Hf & Hl). unfold pool_release.
  destruct (Nat.ltb_spec id (length (p_inuse p))) as [E|E]; [|repeat split; assumption].
  unfold pool_wf. cbn [p_free p_inuse]. rewrite set_nth_length.
  destruct (memb id (p_free p)) eqn:M; [repeat split; assumption|]. apply memb_false in M.
  repeat split; [| |exact Hl].
  - eapply Permutation_NoDup; [apply Permutation_cons_append|]. constructor; assumption.
  - apply Forall_app. split; [exact Hf|]. constructor; [lia|constructor].
Qed.

Lemma pool_step_wf n p o : pool_wf n p -> pool_wf n (fst (pool_step p o)).
Proof.
  intros H. destruct o as [len| |id|id [|]]; cbn [pool_step fst]; auto using pool_lease_wf, pool_release_wf.
  destruct (pool_acquire_lease p len) as [-> | ->]; auto using pool_lease_wf.
Qed.

Lemma pool_run_wf n : forall os p, pool_wf n p -> pool_wf n (fst (pool_run p os)).
Proof.
  induction os as [|o os IH]; intros p H; [exact H|]. rewrite pool_run_fst. apply IH, pool_step_wf, H.
Qed.

(* one step of the ghost: the new holder list, and whether the ticket given back was held *)
Definition ghost_held (p : pool) (held : list (nat * nat)) (k : nat) (o : pop) (t : nat) : list (nat * nat) :=
  match o with
  | PAcquire _ | PLease => match snd (pool_step p o) with Some id => (k, id) :: held | None => held end
  | PRelease id | PDrop id false => hremove (t, id) held
  | PDrop _ true => held
  end.
Definition ghost_ok (held : list (nat * nat)) (o : pop) (t : nat) : bool :=
  match o with PRelease id | PDrop id _ => hmem (t, id) held | _ => true end.

Lemma pool_ghost_cons p held k o t os :
  pool_ghost p held k ((o, t) :: os) =
  let '(h, ok) := pool_ghost (fst (pool_step p o)) (ghost_held p held k o t) (S k) os in
  (h, ghost_ok held o t && ok).
Proof.
  cbn [pool_ghost]. destruct o as [len| |id|id [|]]; cbn [ghost_held ghost_ok]; try reflexivity;
    destruct (pool_step p _) as [p1 r]; cbn [fst snd]; destruct (pool_ghost p1 _ _ os); reflexivity.
Qed.

(* free (+) held = all ids *)
Definition pool_cons (p : pool) (held : list (nat * nat)) : Prop :=
  Permutation (p_free p ++ map snd held) (seq 0 (length (p_inuse p))).

Lemma pool_new_cons count cap : pool_cons (pool_new count cap) [].
Proof.
  unfold pool_cons, pool_new. destruct count as [|c]; [cbn; constructor|].
  destruct cap; [cbn; constructor|]. cbn [p_free p_inuse map]. rewrite repeat_length, app_nil_r. reflexivity.
Qed.

Lemma pool_lease_cons p held k :
  pool_cons p held ->
  pool_cons (fst (pool_lease p)) (match snd (pool_lease p) with Some id => (k, id) :: held | None => held end).
Proof.
  unfold pool_lease. destruct (p_free p) as [|id rest] eqn:E; [trivial|]. unfold pool_cons. rewrite E.
  cbn [fst snd p_free p_inuse map]. rewrite set_nth_length. intros <-. symmetry. apply Permutation_middle.
Qed.

Lemma pool_release_cons p held t id :
  pool_cons p held -> In (t, id) held -> pool_cons (pool_release p id) (hremove (t, id) held).
Proof.
  unfold pool_cons. intros H Hin.
  (* the id given back is held, hence a real id and not in the free list *)
  rewrite (hremove_perm _ _ Hin) in H. cbn [snd] in H.
  assert (Hlt : id < length (p_inuse p)).
  { apply (in_seq (length (p_inuse p)) 0). eapply Permutation_in; [exact H|]. apply in_elt. }
  assert (Hnf : ~ In id (p_free p)).
  { intros Hf. eapply NoDup_remove_2; [eapply Permutation_NoDup; [symmetry; exact H|apply seq_NoDup]|].
    apply in_or_app. left. exact Hf. }
  unfold pool_release. apply Nat.ltb_lt in Hlt. apply memb_false in Hnf. rewrite Hlt, Hnf.
  cbn [p_free p_inuse]. rewrite set_nth_length, <- H, <- app_assoc. reflexivity.
Qed.

Lemma pool_ghost_step p held k o t :
  pool_cons p held -> ghost_ok held o t = true -> pool_cons (fst (pool_step p o)) (ghost_held p held k o t).
Proof.
  intros Hc Hok. destruct o as [len| |id|id [|]]; cbn [pool_step ghost_held ghost_ok fst] in *.
  - destruct (pool_acquire_lease p len) as [-> | ->]; [exact Hc|]. apply pool_lease_cons, Hc.
  - apply pool_lease_cons, Hc.
  - apply pool_release_cons; [exact Hc|]. apply hmem_In, Hok.
  - exact Hc.
  - apply pool_release_cons; [exact Hc|]. apply hmem_In, Hok.
Qed.

Lemma pool_conservation_gen : forall os p held k,
  pool_cons p held -> snd (pool_ghost p held k os) = true ->
  pool_cons (fst (pool_run p (map fst os))) (fst (pool_ghost p held k os)).
Proof.
  induction os as [|[o t] os IH]; intros p held k Hc Hok; [exact Hc|].
  cbn [map fst]. rewrite pool_run_fst. rewrite pool_ghost_cons in *.
  specialize (IH (fst (pool_step p o)) (ghost_held p held k o t) (S k)).
  destruct (pool_ghost _ _ (S k) os) as [h ok]. cbn [fst snd] in *.
  apply andb_true_iff in Hok. destruct Hok as [Hm Hok]. apply IH; [|exact Hok].
  apply pool_ghost_step; assumption.
Qed.

(* a double release (the first holder's id released once more after the buffer has been handed to
   a second holder): the free list stays duplicate-free, but the id is free AND held, and the next
   acquisition gives the same registered buffer to a second holder *)
Definition double_release_history : list (pop * nat) :=
  [(PAcquire 4, 0); (PRelease 0, 0); (PAcquire 4, 0); (PRelease 0, 0); (PAcquire 4, 0)].
