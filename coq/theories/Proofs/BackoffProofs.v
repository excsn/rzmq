(* Model/Backoff.v (property C17, arithmetic part): the closed form of the delay (`delay_unfold`) and how it grows
   with the attempt count; then on_failure / on_success, histories of both, and TcpConnecter's own doubling loop. *)
From RZ Require Import Base.Prelude Model.Backoff.
Local Open Scope N_scope.

Lemma U32MAX_val : U32MAX = 2 ^ 32 - 1. Proof. reflexivity. Qed.
Lemma U64MAX_val : U64MAX = 2 ^ 64 - 1. Proof. reflexivity. Qed.
Lemma I64MAX_val : I64MAX = 2 ^ 63 - 1. Proof. reflexivity. Qed.
Lemma DUR_MAX_val : DUR_MAX = 2 ^ 64 * 10 ^ 9 - 1. Proof. reflexivity. Qed.

Lemma pow2_le_31 e : e <= 31 -> 2 ^ e <= 2147483648.
Proof. intros H. change 2147483648 with (2 ^ 31). apply N.pow_le_mono_r; [discriminate | exact H]. Qed.

(* the multiplier used by the code never saturates: the exponent is at most 31 *)
Lemma multiplier_exact att : sat_pow2_u32 (N.min att 31) = 2 ^ (N.min att 31).
Proof. unfold sat_pow2_u32. destruct (N.ltb_spec (N.min att 31) 32); [reflexivity | lia]. Qed.

(* Duration::saturating_mul on (secs, nanos) is min (d*m) DUR_MAX on nanoseconds.  Only DUR_MAX = U64MAX * NS + (NS - 1)
   matters: U64MAX, quotient and remainder are variables by the time lia runs (its certificate is evaluated at Qed) *)
Lemma std_dur_sat_mul_ns secs nanos rhs :
  dur_ns (std_dur_sat_mul secs nanos rhs) = dur_sat_mul (dur_ns (secs, nanos)) rhs.
Proof.
  unfold std_dur_sat_mul, std_dur_checked_mul, dur_sat_mul, dur_ns, DUR_MAX. cbn [fst snd].
  replace ((secs * NS + nanos) * rhs) with (secs * rhs * NS + nanos * rhs) by ring.
  pose proof (N.div_mod (nanos * rhs) NS ltac:(discriminate)) as Ht.
  pose proof (N.mod_lt (nanos * rhs) NS ltac:(discriminate)) as Hm.
  set (q := nanos * rhs / NS) in *. set (r := (nanos * rhs) mod NS) in *. clearbody q r.
  set (t := nanos * rhs) in *. set (s := secs * rhs). clearbody t s. unfold NS in *. generalize U64MAX. intros u.
  destruct (N.ltb_spec u s); cbn [fst snd]; [lia|].
  destruct (N.ltb_spec u (s + q)); cbn [fst snd]; lia.
Qed.

Lemma std_dur_sat_mul_wf secs nanos rhs :
  secs <= U64MAX -> nanos < NS ->
  fst (std_dur_sat_mul secs nanos rhs) <= U64MAX /\ snd (std_dur_sat_mul secs nanos rhs) < NS.
Proof.
  intros _ _. unfold std_dur_sat_mul, std_dur_checked_mul.
  destruct (N.ltb_spec U64MAX (secs * rhs)); cbn [fst snd]; [split; reflexivity|].
  destruct (N.ltb_spec U64MAX (secs * rhs + nanos * rhs / NS)); cbn [fst snd]; [split; reflexivity|].
  split; [assumption | apply N.mod_lt; discriminate].
Qed.

Lemma dur_sat_mul_le d m : dur_sat_mul d m <= DUR_MAX.
Proof. apply N.le_min_r. Qed.

Definition capped (max d : N) : N := if 0 <? max then N.min d max else d.

Lemma delay_unfold base max att :
  delay base max att = capped max (N.min (base * 2 ^ (N.min att 31)) DUR_MAX).
Proof. unfold delay, capped, dur_sat_mul. rewrite multiplier_exact. reflexivity. Qed.

Lemma capped_mono max a b : a <= b -> capped max a <= capped max b.
Proof. unfold capped. destruct (0 <? max); lia. Qed.
Lemma capped_double max a b : a <= 2 * b -> capped max a <= 2 * capped max b.
Proof. unfold capped. destruct (0 <? max); lia. Qed.

(* The attempt count enters only through the exponent min att 31: the delay is monotone in it, and one more
   step of the exponent at most doubles it.  Every growth fact below is one of these two with a linear side
   condition, whether the counter moves by + 1 or by the saturating add. *)
Lemma delay_le_exp base max a b : N.min a 31 <= N.min b 31 -> delay base max a <= delay base max b.
Proof.
  intros H. rewrite !delay_unfold.
  apply capped_mono, N.min_le_compat_r, N.mul_le_mono_l, N.pow_le_mono_r; [discriminate | exact H].
Qed.

Lemma delay_double_exp base max a b : N.min b 31 <= N.min a 31 + 1 -> delay base max b <= 2 * delay base max a.
Proof.
  intros H. rewrite !delay_unfold. apply capped_double.
  assert (Hp : 2 ^ N.min b 31 <= 2 * 2 ^ N.min a 31).
  { rewrite <- N.pow_succ_r', <- N.add_1_r. apply N.pow_le_mono_r; [discriminate | exact H]. }
  apply (N.mul_le_mono_l _ _ base) in Hp. lia.
Qed.

Lemma delay_next_le_double base max att :
  delay base max (att + 1) <= 2 * delay base max att.
Proof. apply delay_double_exp. lia. Qed.

Lemma delay_monotone base max a b : a <= b -> delay base max a <= delay base max b.
Proof. intros H. apply delay_le_exp. lia. Qed.

(* the real state update: the u32 counter saturates *)
Lemma delay_sat_step base max a :
  delay base max a <= delay base max (u32_sat_add a 1) <= 2 * delay base max a.
Proof. unfold u32_sat_add, U32MAX. split; [apply delay_le_exp | apply delay_double_exp]; lia. Qed.

Lemma delay0 base max : base <= DUR_MAX ->
  delay base max 0 = if 0 <? max then N.min base max else base.
Proof.
  intros H. rewrite delay_unfold. change (2 ^ N.min 0 31) with 1. rewrite N.mul_1_r, N.min_l by exact H. reflexivity.
Qed.

Lemma delay_exact base max att : base * 2 ^ (N.min att 31) <= DUR_MAX ->
  delay base max att = capped max (base * 2 ^ (N.min att 31)).
Proof. intros H. rewrite delay_unfold, N.min_l by exact H. reflexivity. Qed.

Lemma delay_le_max base max att : 0 < max -> delay base max att <= max.
Proof. intros H. rewrite delay_unfold. unfold capped. rewrite (proj2 (N.ltb_lt 0 max) H). apply N.le_min_r. Qed.

Lemma delay_le_durmax base max att : delay base max att <= DUR_MAX.
Proof. rewrite delay_unfold. unfold capped. destruct (0 <? max); lia. Qed.

Lemma delay_ge_base_or_max base max att : base <= DUR_MAX ->
  (if 0 <? max then N.min base max else base) <= delay base max att.
Proof. intros H. rewrite <- (delay0 base max H). apply delay_monotone, N.le_0_l. Qed.

Lemma delay_in_bounds base max att : base <= DUR_MAX ->
  (if 0 <? max then N.min base max else base) <= delay base max att /\ delay base max att <= DUR_MAX
  /\ (0 < max -> delay base max att <= max).
Proof. intros H. split; [apply delay_ge_base_or_max, H|]. split; [apply delay_le_durmax | apply delay_le_max]. Qed.

(* at most 31 doublings *)
Lemma delay_le_shift base max att : delay base max att <= base * 2147483648.
Proof.
  rewrite delay_unfold. pose proof (N.mul_le_mono_l _ _ base (pow2_le_31 _ (N.le_min_r att 31))).
  unfold capped. destruct (0 <? max); lia.
Qed.

(* from attempt 31 on the delay is stationary *)
Lemma delay_stationary base max att : 31 <= att -> delay base max att = delay base max 31.
Proof. intros H. rewrite !delay_unfold, (N.min_r att 31) by exact H. reflexivity. Qed.

Lemma on_failure_done base max now st d st' :
  on_failure base max now st = Done (d, st') ->
  d = delay base max (attempts st) /\ attempts st' = u32_sat_add (attempts st) 1 /\
  instant_add now d = next_at st' /\ next_at st' <> None.
Proof.
  unfold on_failure. destruct (instant_add now _) eqn:E; [|discriminate].
  intros H. injection H as <- <-. cbn [attempts next_at]. repeat split; try assumption. discriminate.
Qed.

Lemma attempts_saturate base max now st d st' :
  attempts st <= U32MAX -> on_failure base max now st = Done (d, st') ->
  attempts st' <= U32MAX /\ attempts st <= attempts st' /\
  (attempts st < U32MAX -> attempts st' = attempts st + 1).
Proof. intros Ha H. apply on_failure_done in H as (_ & -> & _). unfold u32_sat_add. lia. Qed.

Lemma success_resets base max now st :
  on_success st = rstate_default /\
  (base <= DUR_MAX ->
   forall d st', on_failure base max now (on_success st) = Done (d, st') ->
     d = (if 0 <? max then N.min base max else base) /\ attempts st' = 1).
Proof.
  split; [reflexivity|]. intros Hb d st' H. apply on_failure_done in H as (-> & -> & _).
  cbn [on_success attempts]. rewrite delay0 by assumption. split; reflexivity.
Qed.

(* Instant arithmetic: no panic while the sum of seconds stays below i64::MAX *)
Lemma instant_add_ok now d : snd now < NS -> fst now + d / NS < I64MAX ->
  exists t, instant_add now d = Some t /\ snd t < NS /\
            fst t * NS + snd t = fst now * NS + snd now + d.
Proof.
  destruct now as [s ns]. cbn [fst snd]. unfold instant_add. generalize I64MAX. intros i Hn Hs.
  pose proof (N.div_mod d NS ltac:(discriminate)) as Hd. pose proof (N.mod_lt d NS ltac:(discriminate)) as Hm.
  set (q := d / NS) in *. set (r := d mod NS) in *. clearbody q r.
  destruct (N.ltb_spec i (s + q)); [lia|]. unfold NS in *.
  destruct (N.leb_spec 1000000000 (ns + r)).
  - destruct (N.ltb_spec i (s + q + 1)); [lia|]. eexists. split; [reflexivity|]. cbn [fst snd]. lia.
  - eexists. split; [reflexivity|]. cbn [fst snd]. lia.
Qed.

Lemma on_failure_no_panic base max now st :
  snd now < NS -> fst now + delay base max (attempts st) / NS < I64MAX ->
  exists st', on_failure base max now st = Done (delay base max (attempts st), st').
Proof.
  intros Hn Hs. unfold on_failure.
  destruct (instant_add_ok now _ Hn Hs) as (t & -> & _). eexists. reflexivity.
Qed.

(* the largest interval the option parser can produce: i32::MAX milliseconds *)
Definition OPT_MAX_NS : N := 2147483647 * 1000000.

(* attempts counter reached after k failures from a *)
Fixpoint att_after (k : nat) (a : N) : N :=
  match k with O => a | S k' => att_after k' (u32_sat_add a 1) end.

Lemma att_after_small k a : a + N.of_nat k <= U32MAX -> att_after k a = a + N.of_nat k.
Proof.
  revert a. induction k as [|k IH]; intros a H; cbn [att_after]; [lia|].
  unfold u32_sat_add. rewrite N.min_l, IH; lia.
Qed.

(* k consecutive failures from attempt count a: the delays are delay a, delay (a+1), ... (the counter saturating) *)
Fixpoint fail_delays (base max : N) (k : nat) (a : N) : list N :=
  match k with O => [] | S k' => delay base max a :: fail_delays base max k' (u32_sat_add a 1) end.

Lemma run_fail_seq base max now k : forall st ds st',
  run_ops base max now st (repeat OpFail k) = Done (ds, st') ->
  ds = fail_delays base max k (attempts st) /\ attempts st' = att_after k (attempts st).
Proof.
  induction k as [|k IH]; intros st ds st' H; cbn [repeat run_ops] in H.
  - injection H as <- <-. split; reflexivity.
  - destruct (on_failure base max now st) as [[d st1]|] eqn:E1; [|discriminate].
    destruct (run_ops base max now st1 (repeat OpFail k)) as [[ds1 st2]|] eqn:E2; [|discriminate].
    injection H as <- <-. apply on_failure_done in E1 as (-> & Ha & _).
    apply IH in E2 as (-> & ->). rewrite Ha. split; reflexivity.
Qed.

(* adjacent-pairs predicate *)
Fixpoint chain (R : N -> N -> Prop) (l : list N) : Prop :=
  match l with
  | a :: ((b :: _) as t) => R a b /\ chain R t
  | _ => True
  end.

Lemma fail_delays_bounds base max k a : base <= DUR_MAX ->
  Forall (fun d => (if 0 <? max then N.min base max else base) <= d /\ d <= DUR_MAX /\ (0 < max -> d <= max))
         (fail_delays base max k a).
Proof.
  intros Hb. revert a. induction k as [|k IH]; intros a; cbn [fail_delays]; constructor; [|apply IH].
  apply delay_in_bounds, Hb.
Qed.

(* general op sequences: every delay handed out is within [first delay, max]; the counter equals
   the number of failures since the last success (saturating) *)
Fixpoint count_att (a : N) (ops : list rop) : N :=
  match ops with
  | [] => a
  | OpFail :: r => count_att (u32_sat_add a 1) r
  | OpSucc :: r => count_att 0 r
  end.

Lemma run_ops_bounds base max now ops : base <= DUR_MAX -> forall st ds st',
  run_ops base max now st ops = Done (ds, st') ->
  Forall (fun d => (if 0 <? max then N.min base max else base) <= d /\ d <= DUR_MAX /\ (0 < max -> d <= max)) ds
  /\ attempts st' = count_att (attempts st) ops.
Proof.
  intros Hb. induction ops as [|o r IH]; intros st ds st' H; cbn [run_ops] in H.
  - injection H as <- <-. split; [constructor|reflexivity].
  - destruct o; [|exact (IH _ _ _ H)].
    destruct (on_failure base max now st) as [[d st1]|] eqn:E1; [|discriminate].
    destruct (run_ops base max now st1 r) as [[ds1 st2]|] eqn:E2; [|discriminate].
    injection H as <- <-. apply on_failure_done in E1 as (-> & Ha & _).
    apply IH in E2 as (HF & ->). cbn [count_att]. rewrite Ha. split; [|reflexivity].
    constructor; [apply delay_in_bounds, Hb | exact HF].
Qed.

(* a success anywhere in the history makes the next failure start again from the first delay *)
Lemma run_ops_after_success base max now pre : base <= DUR_MAX -> forall st ds st',
  run_ops base max now st (pre ++ [OpSucc; OpFail]) = Done (ds, st') ->
  exists ds0, ds = ds0 ++ [if 0 <? max then N.min base max else base] /\ attempts st' = 1.
Proof.
  intros Hb. induction pre as [|o r IH]; intros st ds st' H; cbn [app run_ops] in H.
  - destruct (on_failure base max now (on_success st)) as [[d st1]|] eqn:E1; [|discriminate].
    injection H as <- <-. destruct (proj2 (success_resets base max now st) Hb _ _ E1) as (-> & Ha).
    exists []. split; [reflexivity|exact Ha].
  - destruct o; [|exact (IH _ _ _ H)].
    destruct (on_failure base max now st) as [[d st1]|] eqn:E1; [|discriminate].
    destruct (run_ops base max now st1 (r ++ [OpSucc; OpFail])) as [[ds1 st2]|] eqn:E2; [|discriminate].
    injection H as <- <-. apply IH in E2 as (ds0 & -> & Ha). exists (d :: ds0). split; [reflexivity|exact Ha].
Qed.

(* there ARE (non-option-reachable) inputs on which `Instant::now() + delay` panics *)
Lemma on_failure_panics_extreme :
  on_failure DUR_MAX 0 (1000, 0) rstate_default = Panic.
Proof. reflexivity. Qed.

Lemma conn_next_spec base cur m : 0 < cur -> 0 < m -> cur * 2 <= DUR_MAX ->
  conn_next base cur (Some m) = Some (N.min (cur * 2) m).
Proof.
  intros Hc Hm Hd. unfold conn_next, dur_mul2.
  rewrite (proj2 (N.ltb_lt 0 cur) Hc), (proj2 (N.ltb_lt 0 m) Hm), (proj2 (N.ltb_ge DUR_MAX (cur * 2)) Hd). reflexivity.
Qed.

(* RECONNECT_IVL_MAX = 0 (the default): the connecter retries at the constant interval *)
Lemma conn_next_nomax base cur : conn_next base cur (Some 0) = Some cur.
Proof. unfold conn_next. change (0 <? 0) with false. rewrite andb_false_r. reflexivity. Qed.

Lemma conn_ff_bounds k : forall cur m r, 0 < m -> m * 2 <= DUR_MAX -> cur <= m ->
  conn_ff k cur m = Some r -> cur <= r /\ r <= m.
Proof.
  induction k as [|k IH]; intros cur m r Hm Hd Hc H; cbn [conn_ff] in H.
  - injection H as <-. lia.
  - unfold dur_mul2 in H. rewrite (proj2 (N.ltb_ge DUR_MAX (cur * 2))) in H by lia.
    apply IH in H; lia.
Qed.

Lemma conn_ff_total k : forall cur m, 0 < m -> m * 2 <= DUR_MAX -> cur <= m ->
  exists r, conn_ff k cur m = Some r.
Proof.
  induction k as [|k IH]; intros cur m Hm Hd Hc; cbn [conn_ff]; [eexists; reflexivity|].
  unfold dur_mul2. rewrite (proj2 (N.ltb_ge DUR_MAX (cur * 2))) by lia. apply IH; lia.
Qed.
