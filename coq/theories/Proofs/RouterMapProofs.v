(* Lemmas about Model/RouterMap.v: association-list facts, the ownership guard, the four operations
   seen through fget / rget (an attach or announcement of pipe p is a detach of p followed by a fresh
   claim), the general invariant, what holds for every history (the latest claimant of an identity
   is reachable), exact correspondence with the specification under distinct identities, and the
   exact behaviour under colliding identities.
   In lemma names: rio = remove_if_owner, rmp = remove_peer_by_read_pipe, rmi = remove_peer_by_identity,
   upd = update_peer_identity; fget_ / pget_ = lookup in a list keyed by identity / by pipe. *)
From RZ Require Import Base.Prelude Model.RouterMap.
Local Open Scope N_scope.

Section AlistFacts.
  Context {K V : Type} (eqb : K -> K -> bool).
  Hypothesis eqb_eq : forall a b, eqb a b = true <-> a = b.

  Lemma key_eqb_spec a b : reflect (a = b) (eqb a b).
  Proof. apply iff_reflect. symmetry. apply eqb_eq. Qed.
  Lemma key_eqb_refl a : eqb a a = true.
  Proof. apply eqb_eq. reflexivity. Qed.
  Lemma key_eqb_sym a b : eqb a b = eqb b a.
  Proof.
    destruct (key_eqb_spec a b) as [->|N]; [symmetry; apply key_eqb_refl|].
    destruct (key_eqb_spec b a); congruence.
  Qed.

  Lemma aget_aremove k k' (l : list (K * V)) :
    aget eqb k (aremove eqb k' l) = if eqb k k' then None else aget eqb k l.
  Proof.
    induction l as [|[k2 v] t IH]; simpl; [destruct (eqb k k'); reflexivity|].
    destruct (key_eqb_spec k' k2) as [<-|N]; simpl; rewrite IH.
    - destruct (eqb k k'); reflexivity.
    - destruct (key_eqb_spec k k2) as [->|_]; [|reflexivity].
      destruct (key_eqb_spec k2 k'); [congruence|reflexivity].
  Qed.
  Lemma aget_aset k k' v (l : list (K * V)) :
    aget eqb k (aset eqb k' v l) = if eqb k k' then Some v else aget eqb k l.
  Proof. unfold aset. simpl. rewrite aget_aremove. destruct (eqb k k'); reflexivity. Qed.

  Lemma aget_in k v (l : list (K * V)) : aget eqb k l = Some v -> In (k, v) l.
  Proof.
    induction l as [|[k2 v2] t IH]; simpl; [discriminate|].
    destruct (key_eqb_spec k k2) as [<-|_]; [intros [= ->]; left; reflexivity|auto].
  Qed.
  Lemma in_aget k v (l : list (K * V)) : NoDup (map fst l) -> In (k, v) l -> aget eqb k l = Some v.
  Proof.
    induction l as [|[k2 v2] t IH]; simpl; [tauto|].
    intros ND [H|H]; apply NoDup_cons_iff in ND; destruct ND as [H1 H2].
    - injection H as <- <-. rewrite key_eqb_refl. reflexivity.
    - destruct (key_eqb_spec k k2) as [<-|_]; [|auto].
      exfalso. apply H1. apply (in_map fst) in H. exact H.
  Qed.
  Lemma aget_none_notin k (l : list (K * V)) : aget eqb k l = None -> ~ In k (map fst l).
  Proof.
    induction l as [|[k2 v2] t IH]; simpl; [tauto|].
    destruct (eqb k k2) eqn:E; [discriminate|]. intros H [C|C].
    - subst. rewrite key_eqb_refl in E. discriminate.
    - exact (IH H C).
  Qed.

  Lemma aget_filter (f : K * V -> bool) k (l : list (K * V)) :
    NoDup (map fst l) ->
    aget eqb k (filter f l) = match aget eqb k l with
                              | Some v => if f (k, v) then Some v else None
                              | None => None
                              end.
  Proof.
    induction l as [|[k2 v2] t IH]; simpl; [reflexivity|].
    intros ND. apply NoDup_cons_iff in ND. destruct ND as [H1 H2]. specialize (IH H2).
    destruct (key_eqb_spec k k2) as [<-|N].
    - destruct (f (k, v2)); [simpl; rewrite key_eqb_refl; reflexivity|].
      rewrite IH. destruct (aget eqb k t) eqn:G; [|reflexivity].
      apply aget_in in G. exfalso. apply H1. apply (in_map fst) in G. exact G.
    - destruct (f (k2, v2)); [simpl; destruct (key_eqb_spec k k2); [contradiction|]|]; exact IH.
  Qed.
  Lemma nodup_filter (f : K * V -> bool) (l : list (K * V)) :
    NoDup (map fst l) -> NoDup (map fst (filter f l)).
  Proof.
    induction l as [|[k2 v2] t IH]; simpl; intros ND; [constructor|].
    apply NoDup_cons_iff in ND. destruct ND as [H1 H2]. destruct (f (k2, v2)); [|auto]. simpl. constructor; [|auto].
    intros C. apply H1. apply in_map_iff in C. destruct C as [[a b] [E C]]. simpl in E. subst.
    apply filter_In in C. destruct C as [C _]. apply (in_map fst) in C. exact C.
  Qed.
  Lemma in_keys_filter (f : K * V -> bool) k (l : list (K * V)) :
    NoDup (map fst l) ->
    (In k (map fst (filter f l)) <-> exists v, aget eqb k l = Some v /\ f (k, v) = true).
  Proof.
    intros ND. split.
    - intros H. apply in_map_iff in H. destruct H as [[k' v] [E H]]. simpl in E. subst k'.
      apply filter_In in H. destruct H as [H F]. exists v. split; [apply in_aget; assumption|exact F].
    - intros (v & G & F). apply in_map_iff. exists (k, v). split; [reflexivity|]. apply filter_In.
      split; [apply aget_in; exact G|exact F].
  Qed.

  Lemma aremove_filter k (l : list (K * V)) : aremove eqb k l = filter (fun x => negb (eqb k (fst x))) l.
  Proof. induction l as [|[k2 v] t IH]; simpl; [reflexivity|]. rewrite IH. destruct (eqb k k2); reflexivity. Qed.
  Lemma nodup_aremove k (l : list (K * V)) : NoDup (map fst l) -> NoDup (map fst (aremove eqb k l)).
  Proof. rewrite aremove_filter. apply nodup_filter. Qed.
  Lemma nodup_aset k v (l : list (K * V)) : NoDup (map fst l) -> NoDup (map fst (aset eqb k v l)).
  Proof.
    intros H. unfold aset. simpl. constructor; [|apply nodup_aremove; exact H].
    apply aget_none_notin. rewrite aget_aremove, key_eqb_refl. reflexivity.
  Qed.
End AlistFacts.

Lemma ident_eqb_eq a b : ident_eqb a b = true <-> a = b.
Proof.
  revert b. induction a as [|x a IH]; intros [|y b]; simpl; try (split; [discriminate|discriminate]).
  - tauto.
  - rewrite andb_true_iff, N.eqb_eq, IH. split; [intros [-> ->]; reflexivity|intros [= -> ->]; tauto].
Qed.
Definition ident_eqb_spec := key_eqb_spec ident_eqb ident_eqb_eq.
Definition ident_eqb_refl := key_eqb_refl ident_eqb ident_eqb_eq.
Definition ident_eqb_sym := key_eqb_sym ident_eqb ident_eqb_eq.
Lemma ident_eqb_neq a b : a <> b -> ident_eqb a b = false.
Proof. intros N. destruct (ident_eqb_spec a b); [contradiction|reflexivity]. Qed.

(* lookup after insert / remove, for the forward map and for the lists keyed by pipe *)
Definition fget_set := @aget_aset ident info ident_eqb ident_eqb_eq.
Definition fget_rm := @aget_aremove ident info ident_eqb ident_eqb_eq.
Definition pget_set {V} := @aget_aset pipe V N.eqb N.eqb_eq.
Definition pget_rm {V} := @aget_aremove pipe V N.eqb N.eqb_eq.

Lemma owned_by_fget p j m :
  owned_by p j (fwd m) = match fget j m with Some (_, o) => o =? p | None => false end.
Proof. unfold owned_by, fget, owner. destruct (aget ident_eqb j (fwd m)) as [[[u s] o]|]; reflexivity. Qed.
Lemma owned_by_set_neq p j id v f : j <> id -> owned_by p j (aset ident_eqb id v f) = owned_by p j f.
Proof. intros N. unfold owned_by. rewrite fget_set, (ident_eqb_neq j id N). reflexivity. Qed.
Lemma rio_aget p id f j :
  aget ident_eqb j (remove_if_owner p id f) = if ident_eqb id j && owned_by p id f then None else aget ident_eqb j f.
Proof.
  unfold remove_if_owner. destruct (owned_by p id f); [|rewrite andb_false_r; reflexivity].
  rewrite andb_true_r, fget_rm, (ident_eqb_sym j id). reflexivity.
Qed.
Lemma nodup_rio p id (f : list (ident * info)) : NoDup (map fst f) -> NoDup (map fst (remove_if_owner p id f)).
Proof. intros H. unfold remove_if_owner. destruct (owned_by p id f); [apply nodup_aremove|]; exact H. Qed.

(* The forward entry a pipe-driven operation of pipe p takes away: the entry of the identity p is
   recorded under, and only if p owns it. *)
Definition releases (p : pipe) (m : rmap) (j : ident) : bool :=
  match rget p m with Some o => ident_eqb o j && owned_by p j (fwd m) | None => false end.
Lemma releases_true_iff p m j :
  releases p m j = true <-> rget p m = Some j /\ exists u st, fget j m = Some (u, st, p).
Proof.
  unfold releases. rewrite owned_by_fget. destruct (rget p m) as [o|]; [|split; [discriminate|intros [H _]; discriminate]].
  rewrite andb_true_iff, ident_eqb_eq. split.
  - intros [-> H]. split; [reflexivity|]. destruct (fget j m) as [[[u st] o']|]; [|discriminate].
    apply N.eqb_eq in H. subst. eauto.
  - intros [E (u & st & F)]. inversion E; subst. rewrite F. split; [reflexivity|apply N.eqb_refl].
Qed.
Lemma releases_false p m j :
  ~ (rget p m = Some j /\ exists u st, fget j m = Some (u, st, p)) -> releases p m j = false.
Proof. intros H. apply not_true_is_false. intros E. apply H, releases_true_iff, E. Qed.
Lemma releases_absent p m j : fget j m = None -> releases p m j = false.
Proof. intros F. apply releases_false. intros (_ & u' & st' & F'). congruence. Qed.
Lemma releases_other_identity p m i j : rget p m = Some i -> j <> i -> releases p m j = false.
Proof. intros R N. apply releases_false. intros (R' & _). congruence. Qed.

Lemma rmp_fget p m j :
  fget j (remove_peer_by_read_pipe p m) = if releases p m j then None else fget j m.
Proof.
  unfold remove_peer_by_read_pipe, fget, releases, rget. destruct (aget N.eqb p (rev m)) as [oid|]; [|reflexivity].
  cbn [fwd]. rewrite rio_aget. destruct (ident_eqb_spec oid j) as [->|_]; reflexivity.
Qed.
Lemma rmp_rget p m q : rget q (remove_peer_by_read_pipe p m) = if q =? p then None else rget q m.
Proof.
  unfold remove_peer_by_read_pipe, rget. destruct (aget N.eqb p (rev m)) as [oid|] eqn:G; cbn [rev].
  - apply pget_rm.
  - destruct (N.eqb_spec q p) as [->|_]; [exact G|reflexivity].
Qed.
Lemma rmp_fget_nonowner p m j u st o :
  fget j m = Some (u, st, o) -> o <> p -> fget j (remove_peer_by_read_pipe p m) = Some (u, st, o).
Proof. intros F N. rewrite rmp_fget, releases_false; [exact F|]. intros (_ & u' & st' & F'). congruence. Qed.
Definition uniq_keys (m : rmap) : Prop := NoDup (map fst (fwd m)) /\ NoDup (map fst (rev m)).
Lemma uniq_rmp p m : uniq_keys m -> uniq_keys (remove_peer_by_read_pipe p m).
Proof.
  intros [F R]. unfold remove_peer_by_read_pipe. destruct (aget N.eqb p (rev m)); [|split; assumption].
  split; cbn [fwd rev]; [apply nodup_rio|apply nodup_aremove]; assumption.
Qed.

(* m' is m after pipe p has let go of what it had (as in a detach) and then taken identity id with
   entry v: what add_peer and update_peer_identity do, in either order of their map updates *)
Definition claims (p : pipe) (id : ident) (v : info) (m m' : rmap) : Prop :=
  (forall q, rget q m' = if q =? p then Some id else rget q m) /\
  (forall j, fget j m' = if ident_eqb id j then Some v else fget j (remove_peer_by_read_pipe p m)).

Lemma add_peer_rev id p u m : rev (add_peer id p u m) = aset N.eqb p id (rev m).
Proof. unfold add_peer. destruct (aget N.eqb p (rev m)); [destruct (ident_eqb _ _)|]; reflexivity. Qed.
Lemma add_peer_claims id p u m : claims p id (u, SDefault, p) m (add_peer id p u m).
Proof.
  split; [intros q; unfold rget; rewrite add_peer_rev; apply pget_set|].
  intros j. rewrite rmp_fget. unfold add_peer, fget, releases, rget.
  destruct (aget N.eqb p (rev m)) as [oid|]; [destruct (ident_eqb_spec oid id) as [->|N]|]; cbn [fwd];
    rewrite ?rio_aget, fget_set, (ident_eqb_sym j id).
  - destruct (ident_eqb id j); reflexivity.
  - destruct (ident_eqb_spec id j) as [<-|NJ]; [rewrite (ident_eqb_neq oid id N); reflexivity|].
    destruct (ident_eqb_spec oid j) as [->|_]; [|reflexivity].
    rewrite owned_by_set_neq by congruence. reflexivity.
  - destruct (ident_eqb id j); reflexivity.
Qed.
Lemma uniq_add_peer id p u m : uniq_keys m -> uniq_keys (add_peer id p u m).
Proof.
  intros [F R]. split; [|rewrite add_peer_rev; apply (nodup_aset _ N.eqb_eq); exact R].
  unfold add_peer. destruct (aget N.eqb p (rev m)); [destruct (ident_eqb _ _)|]; cbn [fwd];
    try apply nodup_rio; apply (nodup_aset _ ident_eqb_eq); exact F.
Qed.

Lemma upd_claims p id u t m : claims p id (u, strat_of_type t, p) m (update_peer_identity p id u t m).
Proof.
  split; [intros q; apply pget_set|].
  intros j. rewrite rmp_fget. unfold update_peer_identity, fget, releases, rget. cbn [fwd].
  rewrite fget_set, (ident_eqb_sym j id). destruct (ident_eqb_spec id j) as [<-|NJ]; [reflexivity|].
  destruct (aget N.eqb p (rev m)) as [oid|]; [|reflexivity].
  destruct (ident_eqb_spec oid id) as [->|_]; [rewrite (ident_eqb_neq id j NJ); reflexivity|].
  rewrite rio_aget. destruct (ident_eqb_spec oid j) as [->|_]; reflexivity.
Qed.
Lemma uniq_upd p id u t m : uniq_keys m -> uniq_keys (update_peer_identity p id u t m).
Proof.
  intros [F R]. split; cbn [update_peer_identity fwd rev]; [|apply (nodup_aset _ N.eqb_eq); exact R].
  apply (nodup_aset _ ident_eqb_eq). destruct (aget N.eqb p (rev m)); [destruct (ident_eqb _ _)|]; try exact F.
  apply nodup_rio. exact F.
Qed.

Lemma candidates_spec id m k :
  NoDup (map fst (rev m)) -> (In k (candidates id m) <-> rget k m = Some id).
Proof.
  intros ND. unfold candidates. split.
  - intros H. apply (in_keys_filter _ N.eqb_eq) in H; [|exact ND]. destruct H as (v & G & F).
    apply ident_eqb_eq in F. simpl in F. subst v. exact G.
  - intros H. apply (in_keys_filter _ N.eqb_eq); [exact ND|]. exists id. split; [exact H|apply ident_eqb_refl].
Qed.
Lemma pick_some h c k : pick h c = Some k -> In k c.
Proof.
  unfold pick. destruct (existsb (N.eqb h) c) eqn:E.
  - intros [= <-]. apply existsb_exists in E. destruct E as [x [I E]]. apply N.eqb_eq in E. subst. exact I.
  - destruct c; simpl; [discriminate|]. intros [= <-]. left. reflexivity.
Qed.
Lemma pick_none h c : pick h c = None -> c = [].
Proof. unfold pick. destruct (existsb (N.eqb h) c); [discriminate|]. destruct c; [reflexivity|discriminate]. Qed.
Lemma pick_hint h c : In h c -> pick h c = Some h.
Proof.
  intros I. unfold pick. replace (existsb (N.eqb h) c) with true; [reflexivity|].
  symmetry. apply existsb_exists. exists h. split; [exact I|apply N.eqb_refl].
Qed.
Lemma pick_unique h1 h2 c : (forall a b, In a c -> In b c -> a = b) -> pick h1 c = pick h2 c.
Proof.
  intros U. destruct c as [|k c]; [reflexivity|].
  assert (forall h, pick h (k :: c) = Some k) as E; [|rewrite !E; reflexivity].
  intros h. destruct (pick h (k :: c)) as [x|] eqn:P.
  - f_equal. apply U; [exact (pick_some _ _ _ P)|left; reflexivity].
  - apply pick_none in P. discriminate.
Qed.

Lemma rmi_fget h id m j :
  fget j (remove_peer_by_identity h id m) = if ident_eqb id j then None else fget j m.
Proof.
  unfold remove_peer_by_identity, fget. destruct (aget ident_eqb id (fwd m)) eqn:G; cbn [fwd].
  - rewrite fget_rm, (ident_eqb_sym j id). reflexivity.
  - destruct (ident_eqb_spec id j) as [<-|_]; [exact G|reflexivity].
Qed.
(* a reverse entry either stays or carried id and is gone *)
Lemma rmi_rget h id m q :
  NoDup (map fst (rev m)) ->
  rget q (remove_peer_by_identity h id m) = rget q m \/
  rget q m = Some id /\ rget q (remove_peer_by_identity h id m) = None.
Proof.
  intros ND. unfold remove_peer_by_identity. destruct (aget ident_eqb id (fwd m)); [|left; reflexivity].
  destruct (pick h (candidates id m)) as [k|] eqn:P; [|left; reflexivity].
  unfold rget. cbn [rev]. rewrite pget_rm. destruct (N.eqb_spec q k) as [->|_]; [right|left; reflexivity].
  split; [|reflexivity]. apply candidates_spec; [exact ND|exact (pick_some _ _ _ P)].
Qed.
Lemma uniq_rmi h id m : uniq_keys m -> uniq_keys (remove_peer_by_identity h id m).
Proof.
  intros [F R]. unfold remove_peer_by_identity. destruct (aget ident_eqb id (fwd m)); [|split; assumption].
  split; cbn [fwd rev]; [apply nodup_aremove; exact F|].
  destruct (pick h (candidates id m)); [apply nodup_aremove|]; exact R.
Qed.
(* remove_peer_by_identity with several candidates: any of them may lose its reverse entry;
   with at most one candidate the oracle is irrelevant. *)
Lemma rmi_any_candidate k id m :
  NoDup (map fst (rev m)) -> fget id m <> None -> rget k m = Some id ->
  forall q, rget q (remove_peer_by_identity k id m) = if q =? k then None else rget q m.
Proof.
  intros ND F K q. unfold remove_peer_by_identity. unfold fget in F.
  destruct (aget ident_eqb id (fwd m)); [|congruence].
  rewrite pick_hint by (apply candidates_spec; assumption). apply pget_rm.
Qed.
Lemma rmi_hint_irrelevant h1 h2 id m :
  NoDup (map fst (rev m)) ->
  (forall p q, rget p m = Some id -> rget q m = Some id -> p = q) ->
  remove_peer_by_identity h1 id m = remove_peer_by_identity h2 id m.
Proof.
  intros ND U. unfold remove_peer_by_identity. rewrite (pick_unique h1 h2); [reflexivity|].
  intros a b A B. apply U; apply candidates_spec; assumption.
Qed.

Section Inv.
  Variable uri_of : pipe -> uri.
  Variable placeholder : pipe -> ident.
  Notation ev_step := (ev_step uri_of placeholder).
  Notation spec_step := (spec_step placeholder).
  Notation run := (run uri_of placeholder).
  Notation spec_run := (spec_run placeholder).

  Definition sget (p : pipe) (s : spec) : option (ident * strat) := aget N.eqb p s.

  (* The strongest relation between the maps and the live-pipe specification that holds after
     EVERY history (colliding identities included):
       - keys are unique in all three;
       - every live pipe has its reverse entry, carrying its latest identity;
       - every forward entry is backed BY ITS RECORDED OWNER: the owner pipe is live, its latest
         identity is the entry's key, and the entry holds exactly that pipe's uri and strategy.
     What does NOT hold in general is the converse of the last point: of several live pipes that
     carry the same identity only one - the latest claimant - owns the entry (see collisions below). *)
  Definition RInv (m : rmap) (s : spec) : Prop :=
    NoDup (map fst (fwd m)) /\ NoDup (map fst (rev m)) /\ NoDup (map fst s) /\
    (forall p i st, sget p s = Some (i, st) -> rget p m = Some i) /\
    (forall i u st o, fget i m = Some (u, st, o) ->
        rget o m = Some i /\ sget o s = Some (i, st) /\ u = uri_of o).

  Lemma RInv_uniq m s : RInv m s -> uniq_keys m.
  Proof. intros (NF & NR & _). split; assumption. Qed.

  Lemma sget_filter (f : pipe * (ident * strat) -> bool) p s :
    NoDup (map fst s) ->
    sget p (filter f s) = match sget p s with Some v => if f (p, v) then Some v else None | None => None end.
  Proof. apply (aget_filter N.eqb N.eqb_eq). Qed.

  Lemma RInv_detach m s p : RInv m s -> RInv (remove_peer_by_read_pipe p m) (aremove N.eqb p s).
  Proof.
    intros RI. destruct (uniq_rmp p m (RInv_uniq m s RI)) as [NF' NR']. destruct RI as (_ & _ & NS & SR & BK).
    split; [exact NF'|]. split; [exact NR'|]. split; [apply nodup_aremove; exact NS|]. split.
    - intros q i st. unfold sget. rewrite rmp_rget, pget_rm. destruct (q =? p); [discriminate|apply SR].
    - intros i u st o. rewrite rmp_fget. destruct (releases p m i) eqn:RL; [discriminate|]. intros H.
      destruct (BK _ _ _ _ H) as (Q1 & Q2 & Q3). unfold sget. rewrite rmp_rget, pget_rm.
      destruct (N.eqb_spec o p) as [->|_]; [|auto].
      (* an entry that survives is not owned by p *)
      rewrite (proj2 (releases_true_iff p m i)) in RL; [discriminate|eauto].
  Qed.

  Lemma RInv_claim m s m' p id st :
    RInv m s -> claims p id (uri_of p, st, p) m m' -> uniq_keys m' -> RInv m' (aset N.eqb p (id, st) s).
  Proof.
    intros RI [HR HF] [NF' NR']. destruct (RInv_detach m s p RI) as (_ & _ & _ & _ & BK1).
    destruct RI as (_ & _ & NS & SR & _).
    split; [exact NF'|]. split; [exact NR'|]. split; [apply (nodup_aset _ N.eqb_eq); exact NS|].
    split.
    - intros q i st'. unfold sget. rewrite HR, pget_set. destruct (q =? p); [intros [= <- <-]; reflexivity|apply SR].
    - intros i u st' o. rewrite HF. unfold sget. rewrite HR, pget_set. destruct (ident_eqb_spec id i) as [<-|_].
      + intros [= <- <- <-]. rewrite N.eqb_refl. auto.
      + intros H. destruct (BK1 _ _ _ _ H) as (Q1 & Q2 & Q3). unfold sget in Q2. rewrite rmp_rget in Q1. rewrite pget_rm in Q2.
        destruct (o =? p); [discriminate|auto].
  Qed.

  Lemma RInv_stale m s h id :
    RInv m s ->
    RInv (remove_peer_by_identity h id m) (filter (fun pv => negb (ident_eqb (fst (snd pv)) id)) s).
  Proof.
    intros RI. destruct (uniq_rmi h id m (RInv_uniq m s RI)) as [NF' NR']. destruct RI as (_ & NR & NS & SR & BK).
    assert (forall q i, rget q m = Some i -> i <> id -> rget q (remove_peer_by_identity h id m) = Some i) as KEEP.
    { intros q i R N. destruct (rmi_rget h id m q NR) as [E|[E _]]; congruence. }
    split; [exact NF'|]. split; [exact NR'|]. split; [apply nodup_filter; exact NS|]. split.
    - intros q i st. rewrite sget_filter by exact NS. destruct (sget q s) as [[i' st']|] eqn:G; [|discriminate].
      simpl. destruct (ident_eqb_spec i' id) as [->|N]; simpl; [discriminate|]. intros [= <- <-].
      exact (KEEP _ _ (SR _ _ _ G) N).
    - intros i u st o. rewrite rmi_fget. destruct (ident_eqb_spec id i) as [<-|N]; [discriminate|]. intros H.
      destruct (BK _ _ _ _ H) as (Q1 & Q2 & Q3). split; [apply KEEP; congruence|]. split; [|exact Q3].
      rewrite sget_filter, Q2 by exact NS. simpl. rewrite ident_eqb_neq by congruence. reflexivity.
  Qed.

  Lemma RInv_step m s e : RInv m s -> RInv (ev_step m e) (spec_step s e).
  Proof.
    intros RI. pose proof (RInv_uniq m s RI) as U. destruct e as [p ido|p ido t|p|h id]; simpl.
    - exact (RInv_claim m s _ p _ _ RI (add_peer_claims _ p _ m) (uniq_add_peer _ p _ m U)).
    - exact (RInv_claim m s _ p _ _ RI (upd_claims p _ _ t m) (uniq_upd p _ _ t m U)).
    - apply RInv_detach. exact RI.
    - apply RInv_stale. exact RI.
  Qed.

  Lemma RInv_run_from m s h : RInv m s -> RInv (run_from uri_of placeholder m h) (spec_run_from placeholder s h).
  Proof.
    revert m s. induction h as [|e h IH]; intros m s H; simpl; [exact H|].
    apply IH. apply RInv_step. exact H.
  Qed.
  Lemma RInv_empty : RInv rm_empty [].
  Proof. repeat split; try constructor; intros; discriminate. Qed.
  Theorem router_inv_holds h : RInv (run h) (spec_run h).
  Proof. apply RInv_run_from. apply RInv_empty. Qed.

  (* No distinctness premise.  Whatever forward entry identity i has after a history, it leads to a
     pipe that is attached right now, whose latest attach/announcement carried i, with that pipe's
     uri and strategy - and that pipe is the recorded owner. *)
  Theorem latest_claimant_reachable h :
    let m := run h in let s := spec_run h in
    forall i u st o, fget i m = Some (u, st, o) ->
      u = uri_of o /\ rget o m = Some i /\ sget o s = Some (i, st).
  Proof.
    intros m s i u st o H. destruct (router_inv_holds h) as (_ & _ & _ & _ & BK).
    destruct (BK _ _ _ _ H) as (Q1 & Q2 & Q3). auto.
  Qed.
  (* ... and it stays so until the owner itself leaves or somebody claims i anew: an attach,
     announcement or detach of a pipe q that is NOT the owner of i's forward entry leaves that entry
     alone - unless q takes identity i itself, in which case q becomes the owner.  (Any map, so in
     particular any reachable one.) *)
  Theorem nonowner_step_keeps_entry m i u st o q :
    fget i m = Some (u, st, o) -> q <> o ->
    fget i (ev_step m (EDetach q)) = Some (u, st, o) /\
    (forall ido, fget i (ev_step m (EAttach q ido)) =
                 if ident_eqb (eff_id placeholder q ido) i then Some (uri_of q, SDefault, q) else Some (u, st, o)) /\
    (forall ido t, fget i (ev_step m (EAnnounce q ido t)) =
                   if ident_eqb (eff_id placeholder q ido) i then Some (uri_of q, strat_of_type t, q) else Some (u, st, o)).
  Proof.
    intros H NQ. pose proof (rmp_fget_nonowner q m i u st o H (not_eq_sym NQ)) as D.
    split; [exact D|]. split; [intros ido|intros ido t]; simpl.
    - rewrite (proj2 (add_peer_claims _ q _ m)), D. reflexivity.
    - rewrite (proj2 (upd_claims q _ _ t m)), D. reflexivity.
  Qed.

  (* what distinctness adds to RInv: every pipe with a reverse entry owns the forward entry of the
     identity recorded there.  With RInv this makes the reverse map exactly the live pipes, each
     reachable under its identity with its own uri, and identities pairwise distinct. *)
  Definition Owned (m : rmap) : Prop :=
    forall p i, rget p m = Some i -> exists u st, fget i m = Some (u, st, p).

  Lemma others_with_nil id p s :
    NoDup (map fst s) -> others_with id p s = [] ->
    forall q st, q <> p -> sget q s <> Some (id, st).
  Proof.
    intros ND E q st NQ H. assert (In q (others_with id p s)) as I; [|rewrite E in I; destruct I].
    apply (in_keys_filter _ N.eqb_eq); [exact ND|]. exists (id, st). split; [exact H|].
    simpl. rewrite ident_eqb_refl, (proj2 (N.eqb_neq q p) NQ). reflexivity.
  Qed.

  (* the test distinct_from makes when a pipe takes an identity *)
  Lemma others_with_tested id p s :
    match others_with id p s with [] => true | _ => false end = true -> others_with id p s = [].
  Proof. destruct (others_with id p s); [reflexivity | discriminate]. Qed.

  Lemma Owned_claim m s m' p id u st :
    RInv m s -> Owned m -> others_with id p s = [] -> claims p id (u, st, p) m m' -> Owned m'.
  Proof.
    intros (_ & _ & NS & _ & BK) O D [HR HF] q i. rewrite HR, HF. destruct (N.eqb_spec q p) as [->|N].
    - intros [= <-]. rewrite ident_eqb_refl. eauto.
    - intros R. destruct (O _ _ R) as (u' & st' & F). destruct (ident_eqb_spec id i) as [<-|_].
      + destruct (BK _ _ _ _ F) as (_ & S & _). destruct (others_with_nil id p s NS D q st' N S).
      + exists u', st'. exact (rmp_fget_nonowner p m i u' st' q F N).
  Qed.
  Lemma Owned_detach m p : Owned m -> Owned (remove_peer_by_read_pipe p m).
  Proof.
    intros O q i. rewrite rmp_rget. destruct (N.eqb_spec q p) as [->|N]; [discriminate|]. intros R.
    destruct (O _ _ R) as (u & st & F). exists u, st. exact (rmp_fget_nonowner p m i u st q F N).
  Qed.
  Lemma Owned_stale m h id : NoDup (map fst (rev m)) -> Owned m -> Owned (remove_peer_by_identity h id m).
  Proof.
    intros NR O q i H. assert (rget q m = Some i) as R.
    { destruct (rmi_rget h id m q NR) as [E|[_ E]]; congruence. }
    destruct (O _ _ R) as (u & st & F). exists u, st. rewrite rmi_fget.
    destruct (ident_eqb_spec id i) as [<-|_]; [exfalso|exact F].
    (* q is the only candidate, so it is the one that lost its reverse entry *)
    assert (forall a b, rget a m = Some id -> rget b m = Some id -> a = b) as U.
    { intros a b A B. destruct (O _ _ A) as (? & ? & FA). destruct (O _ _ B) as (? & ? & FB). congruence. }
    rewrite (rmi_hint_irrelevant h q id m NR U), (rmi_any_candidate q id m NR), N.eqb_refl in H; congruence.
  Qed.

  Lemma Owned_run_from m s h :
    RInv m s -> Owned m -> distinct_from placeholder s h = true -> Owned (run_from uri_of placeholder m h).
  Proof.
    revert m s. induction h as [|e h IH]; intros m s RI O D; simpl; [exact O|].
    simpl in D. apply andb_true_iff in D. destruct D as [D1 D2].
    apply (IH _ (spec_step s e)); [apply RInv_step; exact RI| |exact D2].
    destruct e as [p ido|p ido t|p|k id]; simpl.
    - exact (Owned_claim m s _ p _ _ _ RI O (others_with_tested _ p s D1) (add_peer_claims _ p _ m)).
    - exact (Owned_claim m s _ p _ _ _ RI O (others_with_tested _ p s D1) (upd_claims p _ _ t m)).
    - apply Owned_detach. exact O.
    - apply Owned_stale; [apply RI|exact O].
  Qed.

  Theorem lookup_true_peer_holds h :
    distinct_hist placeholder h = true ->
    let m := run h in let s := spec_run h in
    (forall p i st, sget p s = Some (i, st) -> rget p m = Some i /\ fget i m = Some (uri_of p, st, p)) /\
    (forall p i, rget p m = Some i -> exists st, sget p s = Some (i, st)) /\
    (forall i u st o, fget i m = Some (u, st, o) -> sget o s = Some (i, st) /\ u = uri_of o) /\
    (forall p q i, rget p m = Some i -> rget q m = Some i -> p = q).
  Proof.
    intros D m s. destruct (router_inv_holds h) as (_ & _ & _ & SR & BK). fold m s in SR, BK.
    assert (forall p i, rget p m = Some i -> exists st, sget p s = Some (i, st) /\ fget i m = Some (uri_of p, st, p)) as RS.
    { intros p i R. destruct (Owned_run_from rm_empty [] h RInv_empty ltac:(discriminate) D _ _ R) as (u & st & F).
      destruct (BK _ _ _ _ F) as (_ & S & ->). eauto. }
    split; [|split; [|split]].
    - intros p i st H. pose proof (SR _ _ _ H) as R. destruct (RS _ _ R) as (st' & S & F). split; [exact R|congruence].
    - intros p i R. destruct (RS _ _ R) as (st & S & _). eauto.
    - intros i u st o H. destruct (BK _ _ _ _ H) as (_ & P2 & P3). auto.
    - intros p q i HP HQ. destruct (RS _ _ HP) as (? & _ & FP). destruct (RS _ _ HQ) as (? & _ & FQ). congruence.
  Qed.
End Inv.

(* A second pipe taking an identity that another pipe already carries: the forward entry now
   leads to the newcomer, who becomes its owner ("last wins"); the other pipe keeps its reverse entry. *)
Lemma claims_last_wins p id v m m' :
  claims p id v m m' -> fget id m' = Some v /\ forall q, q <> p -> rget q m' = rget q m.
Proof.
  intros [HR HF]. split; [rewrite HF, ident_eqb_refl; reflexivity|].
  intros q N. rewrite HR, (proj2 (N.eqb_neq q p) N). reflexivity.
Qed.
(* Pipe q carries identity id but the forward entry of id belongs to another pipe p: q lets go of
   nothing, whatever it does. *)
Lemma bystander_detach q m id u st p :
  rget q m = Some id -> fget id m = Some (u, st, p) -> p <> q ->
  forall j, fget j (remove_peer_by_read_pipe q m) = fget j m.
Proof.
  intros Q F N j. rewrite rmp_fget, releases_false; [reflexivity|]. intros (R & u' & st' & F'). congruence.
Qed.
(* Two pipes p, q carry identity id and the forward entry of id belongs to p.  When q re-announces
   under a different identity (update_peer_identity) or is attached anew under one (add_peer), q's
   own new entry appears and everything else stays: p keeps its reverse entry, the forward entry of
   id still leads to p. *)
Lemma collision_claim_keeps_live p q id id' u st v m m' :
  claims q id' v m m' ->
  p <> q -> id' <> id -> rget p m = Some id -> rget q m = Some id -> fget id m = Some (u, st, p) ->
  rget p m' = Some id /\ fget id m' = Some (u, st, p) /\
  fget id' m' = Some v /\
  (forall j, j <> id' -> fget j m' = fget j m) /\
  (forall k, rget k m' = if k =? q then Some id' else rget k m).
Proof.
  intros [HR HF] N NI P Q F.
  assert (forall j, j <> id' -> fget j m' = fget j m) as FJ.
  { intros j NJ. rewrite HF, ident_eqb_neq by congruence. exact (bystander_detach q m id u st p Q F N j). }
  split; [rewrite HR, (proj2 (N.eqb_neq p q) N); exact P|]. split; [rewrite FJ by congruence; exact F|].
  split; [rewrite HF, ident_eqb_refl; reflexivity|]. split; [exact FJ|exact HR].
Qed.
