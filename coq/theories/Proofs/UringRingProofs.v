(* The other two automata of Model/UringPool.v (property C20).
   ProvidedBufferRing: everything is counted with `cnt`. `ring_inv`: every slot is lent to the kernel and every
   buffer ever allocated is in exactly one place (a slot, the pool's stack, a live chunk, deallocated) - for every
   history; `kern_inv`: every buffer id is published or reported, never both - for disciplined histories.
   The fd table: `fd_inv` (at most one successful close), and `fd_budget`, a potential that bounds the Close SQEs
   by one plus the completions processed after the handler was marked closing (`fd_late`). *)
From RZ Require Import Base.Prelude Model.UringPool Proofs.UringPoolProofs.

(* occurrences of a buffer number / buffer id in a list *)
Definition cnt (b : nat) (l : list nat) : nat := count_occ Nat.eq_dec l b.

Lemma cnt_app b l1 l2 : cnt b (l1 ++ l2) = cnt b l1 + cnt b l2.
Proof. apply count_occ_app. Qed.
Lemma cnt_cons b x l : cnt b (x :: l) = (if Nat.eqb x b then 1 else 0) + cnt b l.
Proof.
  unfold cnt. cbn. destruct (Nat.eq_dec x b) as [->|N].
  - rewrite Nat.eqb_refl. reflexivity.
  - apply Nat.eqb_neq in N. rewrite N. reflexivity.
Qed.
Lemma cnt_nil b : cnt b [] = 0. Proof. reflexivity. Qed.

Lemma cnt_remove1 b x l : memb x l = true ->
  cnt b (remove1 x l) + (if Nat.eqb x b then 1 else 0) = cnt b l.
Proof.
  induction l as [|h t IH]; [discriminate|]. intros H. cbn [remove1].
  destruct (Nat.eqb x h) eqn:E.
  - apply Nat.eqb_eq in E. subst. rewrite cnt_cons. lia.
  - unfold memb in H. cbn in H. rewrite E in H. cbn in H. rewrite !cnt_cons. specialize (IH H). lia.
Qed.

Lemma cnt_rev b l : cnt b (rev l) = cnt b l.
Proof. induction l as [|h t IH]; [reflexivity|]. cbn [rev]. rewrite cnt_app, !cnt_cons, cnt_nil, IH. lia. Qed.

Lemma cnt_seq b s n : cnt b (seq s n) = if (s <=? b) && (b <? s + n) then 1 else 0.
Proof.
  destruct (Nat.leb_spec s b), (Nat.ltb_spec b (s + n)); cbn [andb];
    first [apply NoDup_count_occ'; [apply seq_NoDup|apply in_seq; lia] | apply count_occ_not_In; rewrite in_seq; lia].
Qed.

Lemma slot_bufs_cons x l :
  slot_bufs (x :: l) = match x with Some b => [b] | None => [] end ++ slot_bufs l.
Proof. reflexivity. Qed.

Lemma slot_bufs_map_some l : slot_bufs (map Some l) = l.
Proof. induction l as [|h t IH]; [reflexivity|]. cbn [map]. rewrite slot_bufs_cons, IH. reflexivity. Qed.

Lemma slot_bufs_set : forall l bid buf v, slot_get l bid = Some buf -> forall b,
  cnt b (slot_bufs (set_nth l bid (Some v))) + (if Nat.eqb buf b then 1 else 0) =
  cnt b (slot_bufs l) + (if Nat.eqb v b then 1 else 0).
Proof.
  induction l as [|h t IH]; intros [|bid] buf v H b; try discriminate H; cbn [set_nth];
    rewrite !slot_bufs_cons, !cnt_app.
  - destruct h as [x|]; [|discriminate H]. injection H as ->. rewrite !cnt_cons, cnt_nil. lia.
  - specialize (IH bid buf v H b). lia.
Qed.

(* the buffer handed out comes from the pool's stack or is the next fresh one *)
Lemma bp_acquire_spec free next :
  let '(nb, fr, nx) := bp_acquire free next in
  (forall b, cnt b free + (if b <? nx then 1 else 0) =
             cnt b fr + (if Nat.eqb nb b then 1 else 0) + (if b <? next then 1 else 0)) /\
  length fr <= length free.
Proof.
  unfold bp_acquire. destruct (rev free) as [|x r] eqn:E;
    apply (f_equal (@rev nat)) in E; rewrite rev_involutive in E; subst free; cbn [rev].
  - split; [|apply le_n]. intros b. rewrite cnt_nil.
    destruct (Nat.eqb_spec next b), (Nat.ltb_spec b (S next)), (Nat.ltb_spec b next); lia.
  - split; [intros b; rewrite cnt_app, cnt_cons, cnt_nil; lia|]. rewrite app_length. cbn. lia.
Qed.

Definition all_some (l : list (option nat)) : Prop := Forall (fun x => x <> None) l.

Lemma all_some_set l bid nb : all_some l -> all_some (set_nth l bid (Some nb)).
Proof.
  unfold all_some. revert bid. induction l as [|h t IH]; intros [|bid] H; cbn; auto; inversion H; subst; constructor; auto; discriminate.
Qed.

(* every buffer that was ever allocated is in exactly one place *)
Definition buf_inv (r : ring) (g : rghost) : Prop :=
  forall b, cnt b (slot_bufs (r_slots r)) + cnt b (r_free r) + cnt b (g_out g) + cnt b (g_dead g) =
            if b <? r_next r then 1 else 0.

Definition ring_inv (n : nat) (r : ring) (g : rghost) : Prop :=
  length (r_slots r) = n /\ all_some (r_slots r) /\ buf_inv r g /\ length (r_free r) <= r_max r.

Lemma ring_step_inv n r g o : ring_inv n r g -> let '(r1, g1, _) := ring_step r g o in ring_inv n r1 g1.
Proof.
  intros (Hl & Hs & Hb & Hm). unfold ring_inv, buf_inv. destruct o as [|bid filled|bid|b0]; cbn [ring_step].
  - unfold ring_kernel. destruct (r_entries r); repeat split; assumption.
  - unfold ring_take. destruct (r_cap r <? filled); [repeat split; assumption|].
    destruct (slot_get (r_slots r) bid) as [buf|] eqn:Eg; [|repeat split; assumption].
    pose proof (bp_acquire_spec (r_free r) (r_next r)) as Ha.
    destruct (bp_acquire (r_free r) (r_next r)) as [[nb fr] nx]. destruct Ha as [Ha Hf].
    cbn [r_slots r_free r_next r_max g_out g_dead]. repeat split.
    + rewrite set_nth_length. exact Hl.
    + apply all_some_set, Hs.
    + intros b. rewrite cnt_cons. pose proof (slot_bufs_set _ _ _ nb Eg b). specialize (Hb b). specialize (Ha b). lia.
    + lia.
  - unfold ring_reprovide. destruct (slot_get (r_slots r) bid); repeat split; assumption.
  - destruct (memb b0 (g_out g)) eqn:Em; [|repeat split; assumption].
    unfold ring_chunk_drop. destruct (Nat.ltb_spec (length (r_free r)) (r_max r)) as [Ec|Ec];
      cbn [r_slots r_free r_next r_max g_out g_dead]; repeat split; try assumption.
    + intros b. specialize (Hb b). pose proof (cnt_remove1 b b0 _ Em). rewrite cnt_app, cnt_cons, cnt_nil. lia.
    + rewrite app_length. cbn. lia.
    + intros b. specialize (Hb b). pose proof (cnt_remove1 b b0 _ Em). rewrite cnt_cons. lia.
Qed.

(* kernel view, for disciplined histories: every buffer id is either published in the ring or
   reported in a completion that the worker has not processed yet - never both, never twice *)
Definition kern_inv (n : nat) (r : ring) : Prop :=
  forall bid, cnt bid (r_entries r) + cnt bid (r_cq r) = if bid <? n then 1 else 0.

(* take and reprovide publish a reported buffer id again *)
Lemma kern_publish n r bid : kern_inv n r -> memb bid (r_cq r) = true ->
  forall b, cnt b (r_entries r ++ [bid]) + cnt b (remove1 bid (r_cq r)) = if b <? n then 1 else 0.
Proof.
  intros Hk Hd b. specialize (Hk b). pose proof (cnt_remove1 b bid _ Hd). rewrite cnt_app, cnt_cons, cnt_nil. lia.
Qed.

Lemma kern_step n r g o :
  kern_inv n r ->
  (match o with RTake bid _ | RReprovide bid => memb bid (r_cq r) | _ => true end) = true ->
  let '(r1, _, _) := ring_step r g o in kern_inv n r1.
Proof.
  intros Hk Hd. destruct o as [|bid filled|bid|b0]; cbn [ring_step].
  - unfold ring_kernel. destruct (r_entries r) as [|e rest] eqn:Ee; [exact Hk|].
    intros b. specialize (Hk b). rewrite Ee in Hk. cbn [r_entries r_cq].
    rewrite cnt_app, !cnt_cons, cnt_nil in *. lia.
  - unfold ring_take. destruct (r_cap r <? filled); [exact Hk|].
    destruct (slot_get (r_slots r) bid); [|exact Hk].
    destruct (bp_acquire (r_free r) (r_next r)) as [[nb fr] nx]. exact (kern_publish n r bid Hk Hd).
  - unfold ring_reprovide. destruct (slot_get (r_slots r) bid); [|exact Hk]. exact (kern_publish n r bid Hk Hd).
  - destruct (memb b0 (g_out g)); [|exact Hk].
    unfold ring_chunk_drop. destruct (_ <? _); exact Hk.
Qed.

(* whatever the order: every slot is always lent to the kernel and every buffer is in one place;
   under the worker's discipline the ring is never over- or under-provided *)
Lemma ring_run_inv n : forall os r g, ring_inv n r g ->
  let '(r1, g1) := ring_run r g os in
  ring_inv n r1 g1 /\ (kern_inv n r -> ring_disciplined r g os = true -> kern_inv n r1).
Proof.
  induction os as [|o os IH]; intros r g H; [split; [exact H|auto]|].
  cbn [ring_run ring_disciplined].
  pose proof (ring_step_inv n r g o H) as H1. pose proof (kern_step n r g o) as K1.
  destruct (ring_step r g o) as [[r1 g1] res]. specialize (IH r1 g1 H1).
  destruct (ring_run r1 g1 os) as [r2 g2]. destruct IH as [I1 I2]. split; [exact I1|].
  intros Hk Hd. apply andb_true_iff in Hd. destruct Hd as [Hd1 Hd2]. apply I2; [apply K1; assumption|exact Hd2].
Qed.

Definition g0 : rghost := {| g_out := []; g_dead := [] |}.

Lemma ring_new_inv requested cap r0 : ring_new requested cap = Some r0 ->
  ring_inv (length (r_slots r0)) r0 g0 /\ kern_inv (length (r_slots r0)) r0.
Proof.
  unfold ring_new. destruct requested; [discriminate|]. destruct cap; [discriminate|].
  intros [= <-]. generalize (next_pow2 (S requested)). intros n.
  cbn [r_slots]. rewrite map_length, seq_length. split; [repeat split|].
  - cbn [r_slots]. rewrite map_length. apply seq_length.
  - apply Forall_forall. intros x Hx. apply in_map_iff in Hx. destruct Hx as (y & <- & _). discriminate.
  - intros b. cbn [r_slots r_free r_next g_out g_dead g0]. rewrite slot_bufs_map_some, cnt_seq, !cnt_nil.
    cbn [Nat.leb andb Nat.add]. destruct (b <? n); lia.
  - cbn [r_free r_max length]. lia.
  - intros bid. cbn [r_entries r_cq]. rewrite cnt_seq, cnt_nil. cbn [Nat.leb andb Nat.add]. destruct (bid <? n); lia.
Qed.

Definition fd_inv (s : fdst) : Prop :=
  f_closed s <= f_close_sqes s /\ f_closed s <= 1 /\
  (f_present s = false <-> f_closed s = 1) /\
  (f_closing s = false -> f_close_sqes s = 0 /\ f_deadline s = false).

Lemma fd_fresh_inv : fd_inv fd_fresh.
Proof. unfold fd_inv, fd_fresh. cbn. repeat split; try lia; try discriminate; auto. Qed.

Lemma fd_set_inv s d x : fd_inv s -> fd_inv (fd_set s true d x).
Proof.
  unfold fd_inv, fd_set. cbn [f_present f_closing f_deadline f_close_sqes f_closed].
  intros (H1 & H2 & H3 & _). split; [lia|split; [exact H2|split; [exact H3|discriminate]]].
Qed.

Lemma fd_close_initiated_inv s : fd_inv s -> fd_inv (fd_close_initiated s).
Proof.
  intros H. unfold fd_close_initiated. destruct (f_closing s); [exact H|]. exact (fd_set_inv s false 1 H).
Qed.

Lemma fd_step_inv s e : fd_inv s -> fd_inv (fd_step s e).
Proof.
  intros H. unfold fd_step. destruct (f_present s) eqn:Hp; cbn [negb]; [|exact H].
  destruct e as [| | | | | |[|]| |[|]]; auto using fd_set_inv, fd_close_initiated_inv.
  - (* the deadline is only ever armed on a closing handler *)
    destruct (f_deadline s) eqn:Ed; [|exact H]. destruct (f_closing s) eqn:Ec; [apply fd_set_inv, H|].
    destruct H as (_ & _ & _ & H4). destruct (H4 Ec). congruence.
  - destruct (Nat.ltb_spec (f_closed s) (f_close_sqes s)) as [Hlt|]; [|exact H].
    destruct H as (H1 & H2 & H3 & _).
    assert (f_closed s = 0) by (destruct (Nat.eq_dec (f_closed s) 1) as [E|]; [apply H3 in E; congruence|lia]).
    unfold fd_inv. cbn [f_present f_closing f_deadline f_close_sqes f_closed].
    split; [lia|split; [lia|split; [split; intros; [lia|reflexivity]|discriminate]]].
Qed.

Lemma fd_run_inv : forall es s, fd_inv s -> fd_inv (fd_run s es).
Proof. induction es as [|e es IH]; intros s H; [exact H|]. cbn. apply IH. apply fd_step_inv. exact H. Qed.

(* a read / setsockopt completion that the handler still processes after it has been marked closing *)
Fixpoint fd_late (s : fdst) (es : list fev) : nat :=
  match es with
  | [] => 0
  | e :: rest =>
      (if f_present s && f_closing s && fev_unguarded e then 1 else 0) + fd_late (fd_step s e) rest
  end.
Fixpoint fd_delayed (es : list fev) : bool :=
  match es with
  | [] => false
  | FSchedClose true :: _ => true
  | _ :: rest => fd_delayed rest
  end.

Lemma fd_delayed_cons e es : fd_delayed (e :: es) = false -> e <> FSchedClose true /\ fd_delayed es = false.
Proof.
  destruct e as [| | | | | |[|]| |]; cbn [fd_delayed]; intros H; try discriminate H;
    (split; [discriminate|exact H]).
Qed.

(* potential for the number of Close SQEs: a handler not yet marked closing will submit one *)
Definition fd_budget (s : fdst) : nat := if f_closing s then f_close_sqes s else 1.

Lemma fd_step_budget s e : fd_inv s -> f_deadline s = false -> e <> FSchedClose true ->
  fd_budget (fd_step s e) <= fd_budget s + (if f_present s && f_closing s && fev_unguarded e then 1 else 0) /\
  f_deadline (fd_step s e) = false.
Proof.
  intros (_ & _ & _ & Hq) Hd Hn. destruct s as [p c d q k].
  cbn [f_closing f_close_sqes f_deadline] in Hq, Hd. subst d.
  destruct p; [|cbn; split; [apply Nat.le_add_r|reflexivity]].
  (* a handler that is not marked closing has submitted no Close; then every case computes to
     q <= q + 0 or S q <= q + 1 *)
  destruct c; [|destruct (Hq eq_refl) as [-> _]];
    destruct e as [| | | | | |[|]| |[|]]; try congruence; cbn -[Nat.ltb]; try destruct (k <? q); cbn;
    rewrite ?Nat.add_0_r, ?Nat.add_1_r; (split; [apply le_n|reflexivity]).
Qed.

Lemma fd_budget_run : forall es s, fd_inv s -> fd_delayed es = false -> f_deadline s = false ->
  fd_budget (fd_run s es) <= fd_budget s + fd_late s es.
Proof.
  induction es as [|e es IH]; intros s Hi Hd Hdl; [cbn; lia|].
  cbn [fd_run fd_late]. apply fd_delayed_cons in Hd. destruct Hd as [Hn Hd].
  destruct (fd_step_budget s e Hi Hdl Hn) as [Hb Hd1].
  specialize (IH _ (fd_step_inv s e Hi) Hd Hd1). lia.
Qed.

Lemma fd_budget_le s : fd_inv s -> f_close_sqes s <= fd_budget s.
Proof.
  intros (_ & _ & _ & H). unfold fd_budget. destruct (f_closing s); [apply le_n|].
  destruct (H eq_refl) as [-> _]. apply Nat.le_0_l.
Qed.

(* one Close SQE, plus one for every read / setsockopt completion processed after the handler was marked closing *)
Lemma fd_sqes_bound es s : fd_inv s -> fd_delayed es = false -> f_deadline s = false ->
  f_close_sqes (fd_run s es) <= fd_budget s + fd_late s es.
Proof.
  intros Hi Hd Hdl. eapply Nat.le_trans; [apply fd_budget_le, fd_run_inv, Hi|apply fd_budget_run; assumption].
Qed.

(* The state rzmq reached on a PeerError before its repair (Model/UringPool.v, FPeerErr): marked closing, no
   Close submitted, no deadline. No event of the model produces it any more, but from it the fd stays open for
   ever unless a read / setsockopt completion arrives. *)
Fixpoint no_unguarded (es : list fev) : bool :=
  match es with [] => true | e :: rest => negb (fev_unguarded e) && no_unguarded rest end.

Lemma fd_stuck_step s e : f_present s = true -> f_closing s = true -> f_deadline s = false -> f_close_sqes s = 0 ->
  fev_unguarded e = false -> e <> FSchedClose true -> fd_step s e = s.
Proof.
  destruct s as [p c d q k]. cbn [f_present f_closing f_deadline f_close_sqes]. intros -> -> -> -> Hu Hn.
  destruct e as [| | | | | |[|]| |[|]]; cbn in Hu; try discriminate; try congruence; try reflexivity.
Qed.

Lemma fd_stuck : forall es s, f_present s = true -> f_closing s = true -> f_deadline s = false -> f_close_sqes s = 0 ->
  no_unguarded es = true -> fd_delayed es = false ->
  f_close_sqes (fd_run s es) = 0 /\ f_present (fd_run s es) = true.
Proof.
  induction es as [|e es IH]; intros s Hp Hc Hd Hz Hn Hdl; [cbn; auto|].
  cbn [fd_run]. cbn [no_unguarded] in Hn. apply andb_true_iff in Hn. destruct Hn as [Hu Hn].
  apply negb_true_iff in Hu. apply fd_delayed_cons in Hdl. destruct Hdl as [Hnd Hdl].
  rewrite (fd_stuck_step s e Hp Hc Hd Hz Hu Hnd). apply IH; assumption.
Qed.
