(* EgressBuffer (Model/Egress.v). One invariant, `EInv`, relates the buffer to the bytes already handed to the
   transport and to the push history; `einv_insert` covers push and both arms of push_priority, `adv_loop_spec`
   the write; `egress_stream` is the invariant read at the end of a run. *)
From Coq Require Import Permutation.
From RZ Require Import Base.Prelude Model.Egress.
Local Open Scope N_scope.

Definition cat (l : list chunk) : bytes := concat (map c_data l).

Lemma cat_app a b : cat (a ++ b) = cat a ++ cat b.
Proof. unfold cat. rewrite map_app, concat_app. reflexivity. Qed.

Lemma count_of_app a b : count_of (a ++ b) = count_of a + count_of b.
Proof. unfold count_of. induction a as [|x a IH]; cbn; [|rewrite IH]; lia. Qed.

Lemma data_of_app a b : data_of (a ++ b) = data_of a ++ data_of b.
Proof. unfold data_of. rewrite filter_app, map_app. reflexivity. Qed.
Lemma prio_of_app a b : prio_of (a ++ b) = prio_of a ++ prio_of b.
Proof. unfold prio_of. rewrite filter_app, map_app. reflexivity. Qed.

Lemma data_of_cons x l : data_of (x :: l) = (if c_prio x then [] else [c_data x]) ++ data_of l.
Proof. unfold data_of. cbn. destruct (c_prio x); reflexivity. Qed.
Lemma prio_of_cons x l : prio_of (x :: l) = (if c_prio x then [c_data x] else []) ++ prio_of l.
Proof. unfold prio_of. cbn. destruct (c_prio x); reflexivity. Qed.

Lemma cat_data_only l : prio_of l = [] -> cat l = concat (data_of l).
Proof.
  unfold cat, data_of, prio_of. induction l as [|c l IH]; [reflexivity|]. cbn.
  destruct (c_prio c); cbn; [discriminate|]. intros H. f_equal. apply IH. exact H.
Qed.

Lemma firstn_skipn_add {A} : forall (a n : nat) (l : list A),
  firstn a l ++ firstn n (skipn a l) = firstn (a + n) l.
Proof.
  induction a as [|a IH]; intros n l; [reflexivity|].
  destruct l as [|x l]; [cbn; now rewrite firstn_nil|]. cbn. f_equal. apply IH.
Qed.

(* head chunk is never fully written: write_offset < len(head), and 0 when the queue is empty *)
Definition head_ok (chunks : list chunk) (off : nat) : Prop :=
  match chunks with [] => off = 0%nat | h :: _ => (off < length (c_data h))%nat end.

Definition nonempty_chunks (chunks : list chunk) : Prop := Forall (fun c => c_data c <> []) chunks.

Lemma head_ok_zero chunks : nonempty_chunks chunks -> head_ok chunks 0.
Proof.
  destruct chunks as [|h t]; [reflexivity|]. intros H. inversion H; subst. cbn.
  destruct (c_data h); [congruence | cbn; lia].
Qed.

Lemma adv_loop_spec : forall chunks off msgs popped n ch' off' msgs' popped',
  nonempty_chunks chunks -> head_ok chunks off ->
  (n <= length (cat chunks) - off)%nat ->
  adv_loop chunks off msgs popped n = (ch', off', msgs', popped') ->
  exists pc, chunks = pc ++ ch' /\ (off + n = length (cat pc) + off')%nat /\ head_ok ch' off'
             /\ msgs' = msgs - count_of pc /\ popped' = popped + count_of pc.
Proof.
  induction chunks as [|h t IH]; intros off msgs popped n ch' off' msgs' popped' Hne Hh Hn H.
  - cbn in Hh. subst off. cbn in Hn. assert (n = 0%nat) by lia. subst n. cbn in H. inversion H; subst.
    exists []. cbn. repeat split; try lia.
  - cbn [adv_loop] in H. destruct n as [|k].
    + inversion H; subst. exists []. cbn [app cat map concat length count_of fold_right].
      repeat split; try lia. exact Hh.
    + cbn in Hh. inversion Hne as [|? ? Hh1 Hne']; subst.
      destruct (length (c_data h) - off <=? S k)%nat eqn:Hle.
      * apply Nat.leb_le in Hle.
        apply IH in H; [| exact Hne' | apply head_ok_zero; exact Hne' |].
        2:{ unfold cat in Hn. cbn [map concat] in Hn. rewrite app_length in Hn. fold (cat t) in Hn. lia. }
        destruct H as (pc & E1 & E2 & E3 & E4 & E5). exists (h :: pc). split; [cbn; now rewrite E1|].
        split. { change (cat (h :: pc)) with (c_data h ++ cat pc). rewrite app_length. lia. }
        split; [exact E3|].
        change (count_of (h :: pc)) with (c_count h + count_of pc). split; lia.
      * apply Nat.leb_gt in Hle. inversion H; subst. exists [].
        cbn [app cat map concat length count_of fold_right]. repeat split; try lia. cbn. lia.
Qed.

(* the message counter only goes down by a write and up by the count of a push *)
Lemma adv_loop_msgs_le : forall chunks off msgs popped n ch off' msgs' popped',
  adv_loop chunks off msgs popped n = (ch, off', msgs', popped') -> msgs' <= msgs.
Proof.
  induction chunks as [|h t IH]; intros off msgs popped n ch off' msgs' popped' H.
  - destruct n; cbn in H; inversion H; subst; lia.
  - destruct n as [|k]; cbn [adv_loop] in H; [inversion H; subst; lia|].
    destruct (length (c_data h) - off <=? S k)%nat.
    + apply IH in H. lia.
    + inversion H; subst. lia.
Qed.

Lemma eg_advance_msgs_le e n : e_msgs (fst (eg_advance e n)) <= e_msgs e.
Proof.
  unfold eg_advance. destruct (adv_loop (e_chunks e) (e_off e) (e_msgs e) 0 n) as [[[ch off] msgs] popped] eqn:E.
  cbn. eapply adv_loop_msgs_le, E.
Qed.

Lemma eg_push_msgs_le e d c : e_msgs (eg_push e d c) <= e_msgs e + c.
Proof. unfold eg_push. destruct d; cbn; lia. Qed.

(* `done`: the chunks advance() has popped, oldest first; `hd` / `hp`: data and priority chunks pushed so far *)
Record EInv (done : list chunk) (e : egress) (out : bytes) (hd hp : list bytes) : Prop := {
  ei_ne : nonempty_chunks (e_chunks e);
  ei_head : head_ok (e_chunks e) (e_off e);
  ei_out : out = cat done ++ firstn (e_off e) (cat (e_chunks e));
  ei_data : data_of (done ++ e_chunks e) = hd;
  ei_prio : Permutation (prio_of (done ++ e_chunks e)) hp;
  ei_msgs : e_msgs e = count_of (e_chunks e);
  ei_total : e_total e = N.of_nat (length (cat (e_chunks e)) - e_off e)
}.

Lemma head_ok_le chunks off : head_ok chunks off -> (off <= length (cat chunks))%nat.
Proof.
  destruct chunks as [|h t]; cbn; [lia|]. intros H. change (cat (h :: t)) with (c_data h ++ cat t).
  rewrite app_length. lia.
Qed.

(* A chunk that goes in on a chunk boundary at or beyond the write offset - at the back (push), or
   right behind a partly written head or in front of an untouched one (push_priority) - leaves what
   was handed to the transport a prefix of the stream; a data chunk goes in last. *)
Lemma einv_insert done e out hd hp pre post x e' :
  EInv done e out hd hp ->
  e_chunks e = pre ++ post -> (e_off e <= length (cat pre))%nat -> (pre = [] -> e_off e = 0%nat) ->
  c_data x <> [] -> (c_prio x = false -> post = []) ->
  e_chunks e' = pre ++ x :: post -> e_off e' = e_off e ->
  e_total e' = e_total e + blen (c_data x) -> e_msgs e' = e_msgs e + c_count x ->
  EInv done e' out (hd ++ if c_prio x then [] else [c_data x]) (hp ++ if c_prio x then [c_data x] else []).
Proof.
  intros [Hne Hh Ho Hd Hp Hm Ht] Hch Hoff Hpre Hx Hlast Hch' Hoff' Ht' Hm'.
  rewrite Hch in *. constructor; rewrite ?Hch', ?Hoff'.
  - apply Forall_app in Hne. apply Forall_app. split; [tauto|]. constructor; tauto.
  - destruct pre as [|h pre]; [|exact Hh]. rewrite (Hpre eq_refl). cbn. destruct (c_data x); [congruence | cbn; lia].
  - rewrite Ho, !cat_app, !firstn_app_le by exact Hoff. reflexivity.
  - rewrite <- Hd, !data_of_app, data_of_cons, <- !app_assoc.
    destruct (c_prio x); [now rewrite app_nil_r | rewrite (Hlast eq_refl); reflexivity].
  - rewrite <- Hp, !prio_of_app, prio_of_cons, <- !app_assoc.
    do 2 apply Permutation_app_head. apply Permutation_app_comm.
  - rewrite Hm', Hm, !count_of_app. change (count_of (x :: post)) with (c_count x + count_of post). lia.
  - rewrite Ht', Ht, !cat_app, !app_length. unfold blen. change (cat (x :: post)) with (c_data x ++ cat post).
    rewrite app_length. lia.
Qed.

Lemma einv_step done e out hd hp op :
  EInv done e out hd hp ->
  exists e' out' done', eg_step (e, out) op = Some (e', out')
     /\ EInv done' e' out' (hd ++ pushed_data [op]) (hp ++ pushed_prio [op]).
Proof.
  intros HI. pose proof HI as [Hne Hh Ho Hd Hp Hm Ht]. destruct op as [d c | d | n].
  - (* push: at the back *)
    exists (eg_push e d c), out, done. split; [reflexivity|].
    destruct d as [|b d]; [cbn [pushed_data pushed_prio eg_push]; rewrite !app_nil_r; exact HI|].
    apply (einv_insert _ _ _ _ _ (e_chunks e) [] {| c_data := b :: d; c_count := c; c_prio := false |} _ HI);
      try reflexivity; try discriminate; [now rewrite app_nil_r | now apply head_ok_le |].
    intros E. rewrite E in Hh. exact Hh.
  - (* push_priority *)
    destruct d as [|b d].
    { exists e, out, done. split; [reflexivity|]. cbn [pushed_data pushed_prio]. rewrite !app_nil_r. exact HI. }
    set (x := {| c_data := b :: d; c_count := 0; c_prio := true |}).
    cbn [eg_step eg_push_priority]. fold x. destruct (Nat.ltb_spec 0 (e_off e)) as [Hoff|Hoff].
    + (* behind the partly written head *)
      destruct (e_chunks e) as [|h t] eqn:Hch; [cbn in Hh; lia|]. cbn [insert1].
      eexists _, out, done. split; [reflexivity|].
      apply (einv_insert _ _ _ _ _ [h] t x _ HI); try reflexivity; try discriminate; cbn; [exact Hch | | lia].
      cbn in Hh. unfold cat. cbn. rewrite app_nil_r. lia.
    + (* nothing of the head is written: in front of it *)
      eexists _, out, done. split; [reflexivity|].
      apply (einv_insert _ _ _ _ _ [] (e_chunks e) x _ HI); try reflexivity; try discriminate; cbn; lia.
  - (* write n' bytes, then advance(n') *)
    cbn [eg_step]. set (n' := Nat.min n (length (eg_flat e))).
    unfold eg_advance.
    destruct (adv_loop (e_chunks e) (e_off e) (e_msgs e) 0 n') as [[[ch off'] msgs'] popped'] eqn:Ha.
    assert (Hn' : (n' <= length (cat (e_chunks e)) - e_off e)%nat).
    { subst n'. unfold eg_flat. fold (cat (e_chunks e)). rewrite skipn_length. lia. }
    apply adv_loop_spec in Ha; [|exact Hne|exact Hh|exact Hn'].
    destruct Ha as (pc & E1 & E2 & E3 & E4 & E5).
    eexists _, _, (done ++ pc). split; [reflexivity|].
    cbn [fst pushed_data pushed_prio]. rewrite !app_nil_r.
    constructor; cbn [e_chunks e_off e_msgs e_total].
    + rewrite E1 in Hne. apply Forall_app in Hne. tauto.
    + exact E3.
    + rewrite Ho. unfold eg_flat. fold (cat (e_chunks e)). rewrite <- app_assoc, firstn_skipn_add.
      rewrite E2, E1, !cat_app, <- app_assoc. f_equal.
      rewrite firstn_app_2. reflexivity.
    + rewrite <- app_assoc, <- E1. exact Hd.
    + rewrite <- app_assoc, <- E1. exact Hp.
    + rewrite E4, Hm, E1, count_of_app. lia.
    + rewrite Ht, E1, cat_app, app_length. pose proof (head_ok_le _ _ E3). lia.
Qed.

Lemma pushed_data_cons op ops : pushed_data (op :: ops) = pushed_data [op] ++ pushed_data ops.
Proof. destruct op as [[|b d] c|d|n]; reflexivity. Qed.
Lemma pushed_prio_cons op ops : pushed_prio (op :: ops) = pushed_prio [op] ++ pushed_prio ops.
Proof. destruct op as [d c|[|b d]|n]; reflexivity. Qed.

Lemma einv_run : forall ops done e out hd hp,
  EInv done e out hd hp ->
  exists e' out' done', eg_run (e, out) ops = Some (e', out')
     /\ EInv done' e' out' (hd ++ pushed_data ops) (hp ++ pushed_prio ops).
Proof.
  induction ops as [|op ops IH]; intros done e out hd hp HI.
  - exists e, out, done. split; [reflexivity|]. cbn. now rewrite !app_nil_r.
  - destruct (einv_step _ _ _ _ _ op HI) as (e1 & out1 & done1 & Hs & HI1).
    destruct (IH _ _ _ _ _ HI1) as (e2 & out2 & done2 & Hr & HI2).
    exists e2, out2, done2. split.
    + cbn [eg_run]. rewrite Hs. exact Hr.
    + rewrite pushed_data_cons, pushed_prio_cons, !app_assoc. exact HI2.
Qed.

Lemma einv_new : EInv [] eg_new [] [] [].
Proof. constructor; cbn; try reflexivity; constructor. Qed.

(* EGRESS STREAM. For every op sequence (pushes of data chunks, priority pushes, partial writes of
   arbitrary sizes) starting from an empty buffer:
   - no op panics (`insert(1, ..)` is never reached on an empty deque);
   - there is a layout = list of WHOLE chunks such that (bytes handed to the transport) ++ (bytes
     still queued) = concat layout, i.e. what the transport got is a prefix of it;
   - the data chunks of the layout are exactly the pushed data chunks, in push order (so every
     pushed chunk is contiguous in the stream and a priority chunk only ever sits between two
     chunks, never inside one, whatever the write offset was when it was inserted);
   - the priority chunks of the layout are the pushed priority chunks (as a multiset);
   - message_count = sum of the counts of the un-popped chunks. *)
Theorem egress_stream ops :
  exists e out layout,
    eg_run (eg_new, []) ops = Some (e, out)
    /\ out ++ eg_flat e = cat layout
    /\ data_of layout = pushed_data ops
    /\ Permutation (prio_of layout) (pushed_prio ops)
    /\ (exists done, layout = done ++ e_chunks e /\ out = cat done ++ firstn (e_off e) (cat (e_chunks e)))
    /\ e_msgs e = count_of (e_chunks e)
    /\ e_total e = N.of_nat (length (eg_flat e)).
Proof.
  destruct (einv_run ops _ _ _ _ _ einv_new) as (e & out & done & Hr & [Hne Hh Ho Hd Hp Hm Ht]).
  exists e, out, (done ++ e_chunks e). cbn [app] in *. repeat split; try assumption.
  - rewrite Ho, <- app_assoc. unfold eg_flat. fold (cat (e_chunks e)). rewrite firstn_skipn, cat_app. reflexivity.
  - exists done. split; [reflexivity | exact Ho].
  - rewrite Ht. unfold eg_flat. fold (cat (e_chunks e)). rewrite skipn_length. reflexivity.
Qed.
