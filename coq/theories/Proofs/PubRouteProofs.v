(* Model/PubRoute.v.  What a peer gets depends on that peer alone, so one with room is served whatever the
   others do (`send_to_all_outcomes`); the publisher's clock advances by the sum of the waits
   (`send_to_all_total`).  There is no wait with SNDTIMEO = 0 or when every peer has room; with the default
   SNDTIMEO one full peer delays the peer behind it by the whole wait limit (`pub_never_blocks_refuted`). *)
From RZ Require Import Base.Prelude Model.PubRoute.
Local Open Scope N_scope.

Lemma send_to_all_cons d t now p ps :
  send_to_all d t now (p :: ps) =
  ((fst (peer_send d t p), now + snd (peer_send d t p))
     :: fst (send_to_all d t (now + snd (peer_send d t p)) ps),
   snd (send_to_all d t (now + snd (peer_send d t p)) ps)).
Proof.
  cbn [send_to_all]. destruct (peer_send d t p) as [o dt]. cbn [fst snd].
  destruct (send_to_all d t (now + dt) ps). reflexivity.
Qed.

Lemma send_to_all_outcomes d t now ps :
  map fst (fst (send_to_all d t now ps)) = map (fun p => fst (peer_send d t p)) ps.
Proof.
  revert now. induction ps as [|p r IH]; intros now; [reflexivity|].
  rewrite send_to_all_cons. cbn [fst map]. rewrite IH. reflexivity.
Qed.

Lemma send_to_all_length d t now ps : length (fst (send_to_all d t now ps)) = length ps.
Proof. rewrite <- (map_length fst), send_to_all_outcomes. apply map_length. Qed.

Lemma room_is_served d t : fst (peer_send d t Room) = Sent.
Proof. reflexivity. Qed.

Lemma send_to_all_total d t now ps :
  snd (send_to_all d t now ps) = fold_left (fun acc p => acc + snd (peer_send d t p)) ps now.
Proof.
  revert now. induction ps as [|p r IH]; intros now; [reflexivity|].
  rewrite send_to_all_cons. cbn [snd fold_left]. apply IH.
Qed.

(* where no peer makes the publisher wait, every peer is reached at `now` *)
Lemma send_to_all_no_wait d t now ps :
  Forall (fun p => snd (peer_send d t p) = 0) ps ->
  send_to_all d t now ps = (map (fun p => (fst (peer_send d t p), now)) ps, now).
Proof.
  induction 1 as [|p r Hp _ IH]; [reflexivity|].
  rewrite send_to_all_cons, Hp, N.add_0_r, IH. reflexivity.
Qed.

(* with SNDTIMEO = 0 the publisher never waits: total time is 0 beyond `now` *)
Lemma zero_timeout_never_blocks d now ps : snd (send_to_all d TZero now ps) = now.
Proof.
  rewrite send_to_all_no_wait; [reflexivity|]. apply Forall_forall. intros p _. destruct p; reflexivity.
Qed.

Lemma all_room_no_delay d t now ps :
  Forall (fun p => p = Room) ps -> send_to_all d t now ps = (map (fun _ => (Sent, now)) ps, now).
Proof.
  intros H. rewrite send_to_all_no_wait.
  - f_equal. apply map_ext_Forall. eapply Forall_impl; [|exact H]. intros p ->. reflexivity.
  - eapply Forall_impl; [|exact H]. intros p ->. reflexivity.
Qed.

(* the refutation: with the default SNDTIMEO one stalled subscriber in front of a healthy one delays
   the healthy one (and the publisher) by the whole wait limit *)
Lemma pub_never_blocks_refuted :
  exists ps, send_to_all 30000 TNone 0 ps = ([(Dropped, 30000); (Sent, 30000)], 30000)
             /\ nth 1 ps Closed = Room.
Proof. exists [Full Never; Room]. split; reflexivity. Qed.

(* only closed / stale peers are dropped from the distributor; a slow one stays *)
Lemma slow_peer_is_kept d t w : keeps (fst (peer_send d t (Full w))) = true \/ exists a, w = Closes a.
Proof.
  destruct w as [a|a|]; [left|right; exists a; reflexivity|left]; destruct t; cbn [peer_send wait_limit];
    try reflexivity; try (destruct (a <? _); reflexivity).
Qed.
