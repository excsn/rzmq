(* Proofs about the LoadBalancer cursor arithmetic (Model/Balancer.v). *)
From RZ Require Import Base.Prelude Model.Balancer.

(* the invariant of every reachable state: the cursor points at a peer, or the list is empty and
   the cursor is 0.  (The `next_idx >= len` reset in get_next_connection is therefore dead code.) *)
Definition inv (b : bal) : Prop :=
  next_idx b < length (peers b) \/ (peers b = [] /\ next_idx b = 0).

Lemma has_true u l : has u l = true <-> In u l.
Proof.
  unfold has. rewrite existsb_exists. split.
  - intros (x & Hx & He). apply N.eqb_eq in He. subst. exact Hx.
  - intros H. exists u. split; [exact H|apply N.eqb_refl].
Qed.

Lemma has_false u l : has u l = false <-> ~ In u l.
Proof.
  rewrite <- has_true. destruct (has u l); split; intros H; try congruence.
Qed.

Lemma position_none u l : position u l = None <-> ~ In u l.
Proof.
  induction l as [|x t IH]; simpl; [tauto|].
  destruct (N.eqb_spec x u) as [->|Hne]; [split; [discriminate|tauto]|].
  destruct (position u t) as [n|]; simpl; split; try discriminate; try reflexivity.
  - intros H. assert (Some n = None) by (apply IH; tauto). discriminate.
  - intros _ [H|H]; [congruence|tauto].
Qed.

Lemma position_some u l pos :
  position u l = Some pos ->
  exists l1 l2, l = l1 ++ u :: l2 /\ length l1 = pos /\ ~ In u l1 /\ remove_at pos l = l1 ++ l2.
Proof.
  revert pos. induction l as [|x t IH]; simpl; intros pos H; [discriminate|].
  destruct (N.eqb_spec x u) as [->|Hne].
  - inversion H. subst. exists [], t. simpl. tauto.
  - destruct (position u t) as [p|] eqn:E; simpl in H; [|discriminate].
    inversion H. subst. destruct (IH p eq_refl) as (l1 & l2 & -> & Hl & Hn & Hr).
    exists (x :: l1), l2. simpl. repeat split; try congruence.
    intros [Hx|Hx]; [congruence|tauto].
Qed.

Lemma position_mid p l1 l2 : ~ In p l1 -> position p (l1 ++ p :: l2) = Some (length l1).
Proof.
  induction l1 as [|x l1 IH]; simpl; intros H.
  - rewrite N.eqb_refl. reflexivity.
  - destruct (N.eqb_spec x p) as [->|_]; [tauto|]. rewrite IH by tauto. reflexivity.
Qed.

Lemma filter_neq_id u l : ~ In u l -> filter (fun x => negb (N.eqb x u)) l = l.
Proof.
  induction l as [|x t IH]; simpl; intros H; [reflexivity|].
  destruct (N.eqb_spec x u) as [->|Hne]; simpl.
  - exfalso. apply H. now left.
  - f_equal. apply IH. tauto.
Qed.

Lemma filter_neq_nodup a u c :
  NoDup (a ++ u :: c) -> filter (fun x => negb (N.eqb x u)) (a ++ u :: c) = a ++ c.
Proof.
  intros H. apply NoDup_remove_2 in H. rewrite in_app_iff in H. apply Decidable.not_or in H. destruct H as [Ha Hc].
  rewrite filter_app. simpl. rewrite N.eqb_refl. simpl. rewrite (filter_neq_id u a Ha), (filter_neq_id u c Hc). reflexivity.
Qed.

Lemma split_at (l : list N) i : i <= length l ->
  exists l1 l2, l = l1 ++ l2 /\ length l1 = i.
Proof.
  intros H. exists (firstn i l), (skipn i l). split.
  - symmetry. apply firstn_skipn.
  - apply firstn_length_le. exact H.
Qed.

Lemma count_concat_repeat (v : list N) k p :
  count_occ N.eq_dec (concat (repeat v k)) p = k * count_occ N.eq_dec v p.
Proof.
  induction k as [|k IH]; simpl; [reflexivity|]. rewrite count_occ_app, IH. reflexivity.
Qed.

Lemma rot_length i l : length (rot i l) = length l.
Proof.
  unfold rot. rewrite app_length, skipn_length, firstn_length. lia.
Qed.

Lemma rot_0 l : rot 0 l = l.
Proof. unfold rot. simpl. apply app_nil_r. Qed.

Lemma rot_app l1 l2 : rot (length l1) (l1 ++ l2) = l2 ++ l1.
Proof.
  unfold rot. destruct (firstn_skipn_app (length l1) l1 l2 eq_refl) as [-> ->]. reflexivity.
Qed.

Lemma rot_count i l p : count_occ N.eq_dec (rot i l) p = count_occ N.eq_dec l p.
Proof.
  unfold rot. rewrite count_occ_app, Nat.add_comm, <- count_occ_app, firstn_skipn. reflexivity.
Qed.

Lemma rot_in i l p : In p (rot i l) <-> In p l.
Proof.
  rewrite !(count_occ_In N.eq_dec), rot_count. tauto.
Qed.

Lemma rot_nodup i l : NoDup l -> NoDup (rot i l).
Proof.
  rewrite !(NoDup_count_occ N.eq_dec). intros H x. rewrite rot_count. apply H.
Qed.

(* canonical form of a state with at least one peer *)
Lemma inv_split b : inv b -> peers b <> [] ->
  exists l1 x l2, b = mkBal (l1 ++ x :: l2) (length l1).
Proof.
  destruct b as [l i]. unfold inv. simpl. intros [Hi|[-> _]] Hne; [|congruence].
  destruct (split_at l i) as (l1 & l2 & -> & Hl); [lia|].
  destruct l2 as [|x l2].
  - rewrite app_nil_r in Hi. lia.
  - exists l1, x, l2. subst. reflexivity.
Qed.

Lemma view_length b : length (view b) = length (peers b).
Proof. apply rot_length. Qed.

Lemma view_split l1 l2 : view (mkBal (l1 ++ l2) (length l1)) = l2 ++ l1.
Proof. unfold view. simpl. apply rot_app. Qed.

Lemma view_at l1 l2 i : i = length l1 -> view (mkBal (l1 ++ l2) i) = l2 ++ l1.
Proof. intros ->. apply view_split. Qed.

Lemma inv_canon l1 x l2 : inv (mkBal (l1 ++ x :: l2) (length l1)).
Proof. left. simpl. rewrite app_length. simpl. lia. Qed.

Lemma nth_mid (l1 : list N) x l2 : nth (length l1) (l1 ++ x :: l2) 0%N = x.
Proof. rewrite app_nth2, Nat.sub_diag; [reflexivity|lia]. Qed.

(* wrapping the cursor at the end of the list does not change the order of the turns *)
Lemma rot_mod i l : i <= length l -> rot (i mod length l) l = rot i l.
Proof.
  intros H. destruct (Nat.eq_dec i (length l)) as [->|Hne]; [|rewrite Nat.mod_small by lia; reflexivity].
  destruct l as [|x l]; [reflexivity|]. rewrite Nat.mod_same by discriminate.
  unfold rot. rewrite skipn_all, firstn_all. simpl. rewrite app_nil_r. reflexivity.
Qed.

Lemma get_next_empty i : get_next (mkBal [] i) = (None, mkBal [] i).
Proof. reflexivity. Qed.

Lemma get_next_none b : peers b = [] -> get_next b = (None, b).
Proof. intros H. unfold get_next. rewrite H. reflexivity. Qed.

(* under the invariant the bounds-reset branch of get_next_connection is never taken *)
Lemma get_next_no_reset b : inv b -> peers b <> [] ->
  get_next b = (Some (nth (next_idx b) (peers b) 0%N),
                mkBal (peers b) ((next_idx b + 1) mod length (peers b))).
Proof.
  intros [Hi|[E _]] Hne; [|congruence]. unfold get_next.
  destruct (Nat.eqb_spec (length (peers b)) 0) as [E|_].
  - apply length_zero_iff_nil in E. congruence.
  - destruct (Nat.leb_spec (length (peers b)) (next_idx b)); [lia|reflexivity].
Qed.

Lemma view_nil b : view b = [] <-> peers b = [].
Proof. rewrite <- !length_zero_iff_nil, view_length. tauto. Qed.

(* one pick: the head of the view is handed out and moves to the back; nothing else changes *)
Lemma get_next_view b q rest : inv b -> view b = q :: rest ->
  exists b', get_next b = (Some q, b') /\ peers b' = peers b /\ inv b' /\ view b' = rest ++ [q] /\
             next_idx b' = (next_idx b + 1) mod length (peers b).
Proof.
  intros Hi Hv.
  assert (Hne : peers b <> []) by (rewrite <- view_nil, Hv; discriminate).
  rewrite (get_next_no_reset b Hi Hne). destruct (inv_split b Hi Hne) as (l1 & x & l2 & ->).
  rewrite view_split in Hv. inversion Hv. subst q rest. cbn [peers next_idx]. rewrite nth_mid.
  assert (Hl : length l1 + 1 <= length (l1 ++ x :: l2)) by (rewrite app_length; simpl; lia).
  eexists. split; [reflexivity|]. split; [reflexivity|]. split; [|split; [|reflexivity]].
  - left. apply Nat.mod_upper_bound. simpl. lia.
  - unfold view. cbn [peers next_idx]. rewrite rot_mod by exact Hl.
    replace (l1 ++ x :: l2) with ((l1 ++ [x]) ++ l2) by (rewrite <- app_assoc; reflexivity).
    replace (length l1 + 1) with (length (l1 ++ [x])) by (rewrite app_length; reflexivity).
    rewrite rot_app. apply app_assoc.
Qed.

Lemma get_next_hd b : inv b -> fst (get_next b) = hd_error (view b).
Proof.
  intros Hi. destruct (view b) as [|q rest] eqn:E.
  - apply view_nil in E. rewrite get_next_none by exact E. reflexivity.
  - destruct (get_next_view b q rest Hi E) as (b' & -> & _). reflexivity.
Qed.

Lemma inv_bal0 : inv bal0.
Proof. right. split; reflexivity. Qed.

Lemma add_inv u b : inv b -> inv (add u b).
Proof.
  unfold add. destruct (has u (peers b)); [tauto|].
  intros [H|[E1 E2]]; left; simpl; rewrite app_length; simpl; lia.
Qed.

Lemma remove_inv u b : inv b -> inv (remove u b).
Proof.
  unfold remove. intros Hi. destruct (position u (peers b)) as [pos|] eqn:E; [|exact Hi].
  destruct (position_some _ _ _ E) as (l1 & l2 & Hl & <- & _ & ->).
  destruct Hi as [Hi|[E1 _]]; [|rewrite E1 in Hl; destruct l1; discriminate].
  rewrite Hl, app_length in Hi. simpl in Hi. unfold inv.
  destruct (Nat.ltb_spec (length l1) (next_idx b)); simpl.
  - destruct (Nat.ltb_spec 0 (next_idx b)); simpl; rewrite app_length; lia.
  - destruct (Nat.leb_spec (length (l1 ++ l2)) (next_idx b)) as [H1|H1]; simpl; [|lia].
    destruct (l1 ++ l2); [tauto|simpl; lia].
Qed.

Lemma get_next_inv b : inv b -> inv (snd (get_next b)).
Proof.
  unfold get_next. destruct (Nat.eqb_spec (length (peers b)) 0) as [E|E]; [tauto|].
  intros _. left. apply Nat.mod_upper_bound, E.
Qed.

Lemma get_next_peers b : peers (snd (get_next b)) = peers b.
Proof.
  unfold get_next. destruct (length (peers b) =? 0); reflexivity.
Qed.

Lemma bstep_inv b o : inv b -> inv (bstep b o).
Proof. destruct o; simpl; [apply add_inv|apply remove_inv|apply get_next_inv]. Qed.

Theorem idx_in_range ops : inv (brun ops bal0).
Proof. apply (fold_left_inv bstep inv); [intros b o; apply bstep_inv|exact inv_bal0]. Qed.

Lemma add_nodup u b : NoDup (peers b) -> NoDup (peers (add u b)).
Proof.
  unfold add. destruct (has u (peers b)) eqn:E; [tauto|]. simpl. intros H. apply has_false in E.
  rewrite <- (rot_app [u] (peers b)). apply rot_nodup. constructor; assumption.
Qed.

Lemma remove_peers u b : NoDup (peers b) ->
  peers (remove u b) = filter (fun x => negb (N.eqb x u)) (peers b).
Proof.
  intros Hnd. unfold remove. destruct (position u (peers b)) as [pos|] eqn:E.
  - destruct (position_some _ _ _ E) as (l1 & l2 & Hl & _ & _ & Hr).
    rewrite Hl in Hnd. rewrite Hr, Hl, filter_neq_nodup by exact Hnd.
    destruct (_ && _); [reflexivity|]. destruct (_ <=? _); reflexivity.
  - apply position_none in E. symmetry. apply filter_neq_id. exact E.
Qed.

Lemma remove_nodup u b : NoDup (peers b) -> NoDup (peers (remove u b)).
Proof.
  intros H. rewrite remove_peers by exact H. apply NoDup_filter. exact H.
Qed.

Lemma bstep_nodup b o : NoDup (peers b) -> NoDup (peers (bstep b o)).
Proof.
  destruct o; simpl; [apply add_nodup|apply remove_nodup|rewrite get_next_peers; tauto].
Qed.

Lemma picks_snd_step m b q b1 : get_next b = (Some q, b1) -> snd (picks (S m) b) = snd (picks m b1).
Proof. intros H. cbn [picks]. rewrite H. destruct (picks m b1). reflexivity. Qed.

Lemma picks_view pre : forall post b, inv b -> view b = pre ++ post ->
  exists b', picks (length pre) b = (pre, b') /\ inv b' /\ peers b' = peers b /\ view b' = post ++ pre.
Proof.
  induction pre as [|q pre IH]; intros post b Hi Hv.
  - exists b. rewrite app_nil_r. auto.
  - destruct (get_next_view b q (pre ++ post) Hi Hv) as (b1 & Hg & Hp1 & Hi1 & Hv1 & _).
    rewrite <- app_assoc in Hv1. destruct (IH (post ++ [q]) b1 Hi1 Hv1) as (b2 & Hpk & Hi2 & Hp2 & Hv2).
    exists b2. cbn [length picks]. rewrite Hg, Hpk. rewrite <- app_assoc in Hv2.
    repeat split; [exact Hi2|congruence|exact Hv2].
Qed.

Lemma picks_idx m : forall b, inv b -> peers b <> [] ->
  snd (picks m b) = mkBal (peers b) ((next_idx b + m) mod length (peers b)).
Proof.
  induction m as [|m IH]; intros b Hi Hne.
  - destruct b as [l i]. simpl. rewrite Nat.add_0_r. f_equal.
    destruct Hi as [Hi|[E1 _]]; simpl in *; [symmetry; apply Nat.mod_small; exact Hi|congruence].
  - destruct (view b) as [|q rest] eqn:Hv; [apply view_nil in Hv; congruence|].
    destruct (get_next_view b q rest Hi Hv) as (b1 & Hg & Hp1 & Hi1 & _ & Hx1).
    rewrite (picks_snd_step _ _ _ _ Hg), (IH b1 Hi1), Hp1, Hx1 by congruence.
    rewrite Nat.add_mod_idemp_l by (rewrite <- view_length, Hv; discriminate).
    rewrite <- Nat.add_assoc. reflexivity.
Qed.

(* one full pass: every peer once, in list order starting at the cursor; the state is back where it was *)
Lemma picks_pass b : inv b -> picks (length (peers b)) b = (view b, b).
Proof.
  intros Hi. destruct (picks_view (view b) [] b Hi) as (b' & Hpk & _); [symmetry; apply app_nil_r|].
  rewrite view_length in Hpk. rewrite Hpk. f_equal.
  destruct (peers b) as [|x l] eqn:E; [inversion Hpk; reflexivity|]. rewrite <- E in *.
  pose proof (picks_idx (length (peers b)) b Hi) as Hs. rewrite Hpk in Hs. simpl in Hs. rewrite Hs by congruence.
  destruct b as [l0 i]. destruct Hi as [Hi|[E1 _]]; simpl in *; [|congruence]. f_equal.
  rewrite <- (Nat.mul_1_l (length l0)) at 1. rewrite Nat.mod_add, Nat.mod_small by lia. reflexivity.
Qed.

Lemma picks_app m1 : forall m2 b,
  picks (m1 + m2) b =
  let '(l1, b1) := picks m1 b in let '(l2, b2) := picks m2 b1 in (l1 ++ l2, b2).
Proof.
  induction m1 as [|m1 IH]; intros m2 b.
  - simpl. destruct (picks m2 b). reflexivity.
  - cbn [picks Nat.add]. unfold get_next. destruct (length (peers b) =? 0) eqn:E.
    + destruct m2; [reflexivity|]. cbn [picks]. unfold get_next. rewrite E. reflexivity.
    + rewrite IH. destruct (picks m1 _) as [l1 b2]. destruct (picks m2 b2). reflexivity.
Qed.

(* rr_cycle: k full passes hand out the view k times, in that cyclic order, and restore the state *)
Theorem rr_cycle k b : inv b ->
  picks (k * length (peers b)) b = (concat (repeat (view b) k), b).
Proof.
  intros Hi. induction k as [|k IH]; [reflexivity|].
  cbn [Nat.mul]. rewrite picks_app, picks_pass, IH by exact Hi. reflexivity.
Qed.

(* remove: the order of the upcoming turns is the old one with u deleted - nobody is skipped,
   nobody gets a second turn *)
Theorem remove_view u b : inv b -> NoDup (peers b) ->
  view (remove u b) = filter (fun x => negb (N.eqb x u)) (view b).
Proof.
  intros Hi Hnd. unfold remove. destruct (position u (peers b)) as [pos|] eqn:E.
  2:{ apply position_none in E. symmetry. apply filter_neq_id. unfold view. rewrite rot_in. exact E. }
  destruct (position_some _ _ _ E) as (a & c & Hl & <- & Hna & ->). clear E.
  destruct b as [l i]. unfold inv in Hi. cbn [peers next_idx] in *. subst l.
  apply NoDup_remove_2 in Hnd. rewrite in_app_iff in Hnd.
  assert (Hi' : i < length a + S (length c)).
  { rewrite app_length in Hi. destruct Hi as [Hi|[E1 _]]; [exact Hi|destruct a; discriminate]. }
  clear Hi. destruct (Nat.ltb_spec (length a) i) as [Hlt|Hge]; cbn [andb].
  - (* the removed peer sits before the cursor *)
    replace (0 <? i) with true by (symmetry; apply Nat.ltb_lt; lia).
    destruct (split_at c (i - length a - 1)) as (c1 & c2 & -> & Hc1); [lia|].
    rewrite in_app_iff in Hnd. transitivity (c2 ++ a ++ c1).
    + rewrite (app_assoc a c1 c2). apply view_at. rewrite app_length. lia.
    + change (a ++ u :: c1 ++ c2) with (a ++ (u :: c1) ++ c2).
      rewrite (app_assoc a (u :: c1) c2), view_at by (rewrite app_length; simpl; lia).
      rewrite !filter_app. simpl. rewrite N.eqb_refl. simpl.
      rewrite (filter_neq_id u a), (filter_neq_id u c1), (filter_neq_id u c2) by tauto. reflexivity.
  - (* at or after the cursor *)
    destruct (split_at a i) as (a1 & a2 & -> & <-); [lia|].
    rewrite in_app_iff in Hna. transitivity (a2 ++ c ++ a1).
    + rewrite <- (app_assoc a1 a2 c).
      destruct (Nat.leb_spec (length (a1 ++ a2 ++ c)) (length a1)) as [Hle|Hgt]; [|rewrite view_split; symmetry; apply app_assoc].
      rewrite !app_length in Hle. destruct a2; [|simpl in Hle; lia]. destruct c; [|simpl in Hle; lia].
      unfold view. simpl. rewrite rot_0. apply app_nil_r.
    + rewrite <- (app_assoc a1 a2 (u :: c)), view_split.
      rewrite !filter_app. simpl. rewrite N.eqb_refl. simpl.
      rewrite (filter_neq_id u a1), (filter_neq_id u a2), (filter_neq_id u c) by tauto. rewrite <- app_assoc. reflexivity.
Qed.

(* add: a new uri goes to the end of the list; the cursor is untouched, so it takes its first
   turn after every peer that is still to come in the current pass and before those that already
   had theirs; a uri that is already present changes nothing *)
Theorem add_joins_end u b : inv b -> ~ In u (peers b) ->
  peers (add u b) = peers b ++ [u] /\ next_idx (add u b) = next_idx b /\
  view (add u b) = skipn (next_idx b) (peers b) ++ u :: firstn (next_idx b) (peers b).
Proof.
  intros Hi Hn. unfold add. apply has_false in Hn. rewrite Hn. simpl. repeat split.
  unfold view, rot. simpl.
  assert (next_idx b <= length (peers b)) by (destruct Hi as [|[-> ->]]; simpl; lia).
  rewrite skipn_app_le, firstn_app by assumption.
  replace (next_idx b - length (peers b)) with 0 by lia. simpl. rewrite app_nil_r, <- app_assoc. reflexivity.
Qed.

Theorem add_dup_noop u b : In u (peers b) -> add u b = b.
Proof. intros H. unfold add. apply has_true in H. rewrite H. reflexivity. Qed.

