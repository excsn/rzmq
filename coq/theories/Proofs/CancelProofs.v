(* Proofs about Model/Cancel.v (C09).

   `covers phi psi q p` says of an operation that stands before the remaining program q in protocol
   state p: wherever it can still be parked `phi` holds, however it can still return `psi` holds of
   the result code and the (pre-glue) state.  It is computed from the program text alone, because
   the world never writes the protocol state: it only decides which awaits are ready and which batch
   a pop returns.  `call_covered` carries it through a call and everything the world does between
   polls; the per-socket theorems are then one symbolic run over each row of the program table. *)
From RZ Require Import Base.Prelude Model.Cancel.
Local Open Scope N_scope.

(* the part of `ready` that only reads the protocol state *)
Definition pready (w : wait) (p : Proto) : bool :=
  match w with WPermit => negb (p_perm p) | WTx => is_none (p_dtx p) | _ => true end.

Lemma ready_pready c w p e : ready c w p e = true -> pready w p = true.
Proof. destruct w; simpl; auto. Qed.

Definition is_lock (w : wait) : bool := match w with WLock => true | _ => false end.

Definition bg (es : list ev) : Prop := Forall (fun x => is_bg x = true) es.

Section Covers.
Variables (phi : Proto -> Prop) (psi : N -> Proto -> Prop).

(* the uncontended mutex never parks; a completed await may have seen any pipes `en` *)
Fixpoint covers (q : prog) (p : Proto) : Prop :=
  match q with
  | [] => psi 1 p
  | Act f :: r => covers r (f p)
  | Chk g err :: r => if g p then covers r p else psi err p
  | Aw w h :: r =>
      (if is_lock w then True else phi p) /\
      (pready w p = true -> forall en, covers r (peff w en p)) /\
      match h with TNone => True | TSkip => covers r p | TRet f x => psi x (f p) end
  | Ret x :: _ => psi x p
  end.

Definition covered (s : state) : Prop :=
  match s with
  | (TPark q, p, _) => phi p /\ covers q p
  | (TIdle, p, _) => exists x pp, p = finish x pp /\ psi x pp
  end.

Lemma exec_covered c q : forall p e, covers q p -> covered (exec c q p e).
Proof.
  induction q as [|[f|g err|w h|x] r IH]; intros p e C; simpl in *.
  - exists 1, p. auto.
  - apply IH, C.
  - destruct (g p); [apply IH, C|exists err, p; auto].
  - destruct (ready c w p e) eqn:RD.
    + apply IH, C, (ready_pready _ _ _ _ RD).
    + split; [|exact C]. destruct w; try apply C. discriminate RD.
  - exists x, p. auto.
Qed.

Lemma step_covered c t x s : is_bg x = true -> covered s -> covered (step c t x s).
Proof.
  intros B C. destruct s as [[th p] e].
  assert (E : forall e', covered (th, p, e')) by (intros e'; destruct th; exact C).
  destruct x; try discriminate B; simpl.
  - destruct th as [|q]; [exact C|apply exec_covered, C].
  - destruct th as [|[|[f|g err|w [| |f y]|y] r]]; try exact C.
    + apply exec_covered, C.
    + exists y, (f p). split; [reflexivity|apply C].
  - destruct k; exact (E e).
  - destruct (e_dq e); [exact C|]. destruct (e_peer e && Nat.ltb (length (e_out e)) (cap c)); [exact (E e)|exact C].
  - destruct (Nat.ltb (length (e_in e)) (incap c)); [exact (E e)|exact C].
  - exact (E e).
Qed.

(* a call, then any amount of world activity and polls *)
Theorem call_covered c t o p0 e0 es :
  covers (program c t o p0 e0) p0 -> bg es -> covered (run c t (Call o :: es) (TIdle, p0, e0)).
Proof.
  intros C B. unfold run. simpl fold_left.
  generalize (exec_covered c _ p0 e0 C). generalize (exec c (program c t o p0 e0) p0 e0).
  induction B as [|x es Bx _ IH]; intros s S; [exact S|apply IH, step_covered; assumption].
Qed.
End Covers.

(* One symbolic run of `covers` over a row of the program table: open the conjunctions, branch on
   every test the program text or a guard makes (a refuted guard closes its branch), and hand what
   is asked of a park position or a return to `leaf`; a test on `ord c` or `mand c` that is left
   inside a state or a result code is decided when `leaf` cannot.  The pipe entries are never looked
   into, so `norm` stays folded. *)
Local Arguments norm : simpl never.
Ltac unf := unfold program, recv_buffered, dealer_route, push_whole, pub_prog, to, mand_err.
(* destruct the innermost test of x *)
Ltac branch_on x :=
  lazymatch x with
  | context [match ?y with _ => _ end] => branch_on y
  | negb ?v => branch_on v
  | is_none ?v => branch_on v
  | _ => first [is_var x; destruct x | destruct x eqn:?]
  end.
Ltac sweep leaf :=
  unf;
  repeat (simpl; first [ leaf | match goal with
    | |- True => exact I
    | |- _ /\ _ => split
    | |- forall _ : Env, _ => intro
    | |- true = true -> _ => intros _
    | |- false = true -> _ => intros [=]
    | |- negb ?v = true -> _ => branch_on v
    | |- is_none ?v = true -> _ => branch_on v
    | |- covers _ _ (match ?x with _ => _ end) _ => branch_on x
    | |- match ?x with _ => _ end => branch_on x
    | |- context [ord ?c] => destruct (ord c)
    | |- context [mand ?c] => destruct (mand c) eqn:?
    end ]).

(* no operation in flight owns anything *)
Definition quiet (p : Proto) : Prop := p_fperm p = false /\ p_reg p = None.

Definition pub_item (o : opk) : item :=
  match o with OSend f => [f] | OSendMp ts => norm (untag ts) | _ => [] end.

Definition rep_send (t : sock) (o : opk) : bool :=
  match t, o with REP, OSend _ | REP, OSendMp _ => true | _, _ => false end.

Definition is_send (o : opk) : bool := match o with OSend _ | OSendMp _ => true | _ => false end.

(* the protocol states in which a call that started in p0 can be parked: everything a drop at any
   cancellation point can leave behind is `glue` of one of these *)
Inductive parked (t : sock) (o : opk) (p0 : Proto) : Proto -> Prop :=
| P_same : parked t o p0 p0
| P_permit : t = ROUTER -> p_perm p0 = false -> parked t o p0 (set_rt (p_rtgt p0) true true p0)
| P_ident f : t = ROUTER -> o = OSend f -> p_rtgt p0 = false -> p_perm p0 = false ->
    parked t o p0 (add_pushed [(IDENT, true)] (set_rt (p_rtgt p0) true true p0))
| P_pub1 : t = PUB -> is_send o = true -> parked t o p0 (add_pushed (pub_item o) p0)
| P_pub2 : t = PUB -> is_send o = true -> parked t o p0 (add_pushed2 (pub_item o) p0)
| P_rep : rep_send t o = true -> parked t o p0 (set_rep None p0)
| P_dealer tag : t = DEALER -> o = OSend (tag, false) -> parked t o p0 (set_dtx None p0).

Lemma program_parked c t o p0 e0 : covers (parked t o p0) (fun _ _ => True) (program c t o p0 e0) p0.
Proof.
  destruct t, o as [[tag more]|ts| |];
    sweep ltac:(idtac; lazymatch goal with |- parked _ _ _ _ => solve [econstructor; first [reflexivity|assumption]] end).
Qed.

Theorem parked_shape c t o p0 e0 es q p e :
  bg es -> run c t (Call o :: es) (TIdle, p0, e0) = (TPark q, p, e) -> parked t o p0 p.
Proof.
  intros B R. pose proof (call_covered _ _ c t o p0 e0 es (program_parked c t o p0 e0) B) as H.
  rewrite R in H. apply H.
Qed.

(* the calls whose drop leaves no trace at all.  Not among them: the identity part of a frame-by-frame ROUTER
   send (the identity frame may be on the pipe), REP's sends (the envelope is consumed before the awaited
   push), the DEALER part that closes an open transaction (the buffered parts are gone), PUB (the subscribers
   served so far keep the message) *)
Definition plain (t : sock) (o : opk) (p0 : Proto) : bool :=
  match t, o with
  | ROUTER, OSend _ => p_rtgt p0
  | REP, OSend _ | REP, OSendMp _ => false
  | DEALER, OSend f => snd f || is_none (p_dtx p0)
  | PUB, OSend _ | PUB, OSendMp _ => false
  | _, _ => true
  end.

Theorem cancel_is_noop c t o p0 e0 es q p e :
  quiet p0 -> plain t o p0 = true -> bg es ->
  run c t (Call o :: es) (TIdle, p0, e0) = (TPark q, p, e) ->
  core (glue p) = core p0.
Proof.
  intros [Q1 Q2] PL B R.
  destruct (parked_shape c t o p0 e0 es q p e B R) as [|T P|f T O RT P|T S|T S|S|tag T O]; clear R;
    destruct p0 as [req rep dtx rtgt perm fperm buf reg pu pu2 tk app rets]; simpl in *; subst;
    try reflexivity.
  - (* P_ident: not plain *) discriminate.
  - (* P_pub1 *) destruct o; discriminate.
  - (* P_pub2 *) destruct o; discriminate.
  - (* P_rep *) destruct t, o; discriminate.
  - (* P_dealer: plain only without an open transaction, and then nothing was buffered *)
    destruct dtx; [discriminate PL|reflexivity].
Qed.

(* the identity part of a frame-by-frame ROUTER send: the one call whose drop can leave a fragment of a message
   (the identity frame alone) on the pipe *)
Definition ident_part (t : sock) (o : opk) (p0 : Proto) : bool :=
  match t, o with ROUTER, OSend _ => negb (p_rtgt p0) | _, _ => false end.

(* the pipe entry a one-entry send call commits *)
Definition wire_item (t : sock) (o : opk) (p0 : Proto) : option item :=
  match t, o with
  | PUSH, OSend f => Some [f]
  | PUSH, OSendMp (x :: r) => Some (norm (untag (x :: r)))
  | REQ, OSend f => Some [(DELIM, true); (fst f, false)]
  | REP, OSend f => match p_rep p0 with Some pre => Some (norm (pre ++ [(fst f, false)])) | None => None end
  | REP, OSendMp ts => match p_rep p0 with
                       | Some pre => Some (norm (pre ++ match ts with [] => [(0, false)] | _ => untag ts end))
                       | None => None end
  | DEALER, OSend f => if snd f then None
                       else Some (dealer_encode (match p_dtx p0 with Some parts => parts | None => [] end ++ [f]))
  | DEALER, OSendMp ts => Some (dealer_encode (untag ts))
  | ROUTER, OSendMp (idt :: pl) => if idt =? IDENT then Some (norm ((IDENT, true) :: (DELIM, true) :: untag pl)) else None
  | _, _ => None
  end.

Definition done_psi (c : Cfg) (t : sock) (it : item) (p0 : Proto) (x : N) (pp : Proto) : Prop :=
  (p_pushed (glue pp) = p_pushed p0 \/ p_pushed (glue pp) = p_pushed p0 ++ [it]) /\
  (x <> 1 -> p_pushed (glue pp) = p_pushed p0) /\
  ((t <> ROUTER \/ mand c = true) -> x = 1 -> p_pushed (glue pp) = p_pushed p0 ++ [it]) /\
  p_perm (glue pp) = p_perm p0 /\ p_rtgt (glue pp) = p_rtgt p0 /\ quiet (glue pp).

Lemma quiet_glue p : quiet (glue p).
Proof. unfold glue, quiet. destruct (p_fperm p) eqn:F; simpl; auto. Qed.

Lemma pushed_glue p : p_pushed (glue p) = p_pushed p.
Proof. unfold glue. destruct (p_fperm p); reflexivity. Qed.

(* the two ways a one-entry send ends: nothing committed (answered Ok only by ROUTER without
   ROUTER_MANDATORY), or the whole entry and Ok *)
Lemma done_nothing c t it p0 x pp :
  p_pushed pp = p_pushed p0 -> p_perm (glue pp) = p_perm p0 -> p_rtgt (glue pp) = p_rtgt p0 ->
  (x = 1 -> t = ROUTER /\ mand c = false) -> done_psi c t it p0 x pp.
Proof.
  intros PU PE RT X. destruct (quiet_glue pp). unfold done_psi. rewrite pushed_glue, PU. repeat split; auto.
  intros [T|M] E; destruct (X E); congruence.
Qed.

Lemma done_whole c t it p0 pp :
  p_pushed pp = p_pushed p0 ++ [it] -> p_perm (glue pp) = p_perm p0 -> p_rtgt (glue pp) = p_rtgt p0 ->
  done_psi c t it p0 1 pp.
Proof.
  intros PU PE RT. destruct (quiet_glue pp). unfold done_psi. rewrite pushed_glue, PU. repeat split; auto.
  intros NE. contradiction NE. reflexivity.
Qed.

Lemma program_done c t o it p0 e0 : quiet p0 -> wire_item t o p0 = Some it ->
  covers (fun _ => True) (done_psi c t it p0) (program c t o p0 e0) p0.
Proof.
  intros [Q1 Q2] W. destruct p0 as [req rep dtx rtgt perm fperm buf reg pu pu2 tk app rets]. simpl in Q1, Q2. subst.
  destruct t, o as [[tag more]|ts| |]; try discriminate W; simpl in W;
    repeat (match type of W with context [match ?x with _ => _ end] => destruct x eqn:? end; try discriminate W);
    injection W as <-;
    sweep ltac:(idtac; lazymatch goal with |- done_psi _ _ _ _ _ _ =>
      solve [apply done_nothing; [reflexivity..|first [intros _; split; [reflexivity|assumption]|intros [=]]]
            |apply done_whole; reflexivity] end).
Qed.

Definition recv_err_psi (c : Cfg) (t : sock) (p0 : Proto) (x : N) (pp : Proto) : Prop :=
  x <> 1 ->
  p_taken (glue pp) = p_taken p0 /\ p_app (glue pp) = p_app p0 /\ p_buf (glue pp) = p_buf p0 /\
  p_rep (glue pp) = p_rep p0 /\ p_pushed (glue pp) = p_pushed p0 /\
  (p_req (glue pp) = p_req p0 \/ (t = REQ /\ rcvto c = true /\ x = 2 /\ p_req p0 = true /\ p_req (glue pp) = false)).

(* how a receive call ends: Ok (always, once it has popped: only synchronous code follows a pop), an
   error with the state as it was, or REQ's time-out, which forgets the outstanding request *)
Lemma recv_err_ok c t p0 pp : recv_err_psi c t p0 1 pp.
Proof. intros NE. contradiction NE. reflexivity. Qed.

Lemma recv_err_same c t p0 x : quiet p0 -> recv_err_psi c t p0 x p0.
Proof. intros [Q1 Q2] _. unfold glue. rewrite Q1. simpl. auto 7. Qed.

Lemma recv_err_req c p0 : quiet p0 -> rcvto c = true -> p_req p0 = true ->
  recv_err_psi c REQ p0 2 (set_req false p0).
Proof. intros [Q1 Q2] TO RQ _. unfold glue. simpl. rewrite Q1. simpl. repeat split; auto. right. auto. Qed.

Lemma program_recv_err c t o p0 e0 : (o = ORecv \/ o = ORecvMp) -> quiet p0 ->
  covers (fun _ => True) (recv_err_psi c t p0) (program c t o p0 e0) p0.
Proof.
  intros O Q. destruct O; subst o; destruct t;
    sweep ltac:(idtac; lazymatch goal with
      | |- recv_err_psi _ _ _ 1 _ => apply recv_err_ok
      | |- recv_err_psi _ _ _ _ (set_req false _) => apply recv_err_req; assumption
      | |- recv_err_psi _ _ _ _ _ => apply recv_err_same, Q
      end).
Qed.

Definition keeps (f : Proto -> Proto) : Prop := forall p, p_taken (f p) = p_taken p.
Definition okinstr (i : instr) : Prop :=
  match i with Act f => keeps f | Aw _ (TRet f _) => keeps f | _ => True end.

(* only the completion of a pop adds to p_taken: every function in the table is made of the other setters *)
Lemma program_ok c t o p0 e0 : Forall okinstr (program c t o p0 e0).
Proof.
  destruct t, o; unf;
    repeat (simpl; first
      [ match goal with |- Forall _ (match ?x with _ => _ end) => branch_on x end
      | apply Forall_nil
      | apply Forall_cons;
        [ simpl; repeat match goal with |- match ?x with _ => _ end => branch_on x end; try exact I;
          intros pp; unfold deliver_first, deliver_all;
          repeat match goal with |- context [match ?x with _ => _ end] => destruct x end; reflexivity
        | ] ]).
Qed.

Definition qinv (s : state) : Prop :=
  let '(th, p, e) := s in
  p_taken p ++ e_in e = e_arrived e /\ match th with TPark q => Forall okinstr q | TIdle => True end.

Lemma taken_finish x p : p_taken (finish x p) = p_taken p.
Proof. unfold finish, glue. destruct (p_fperm p); reflexivity. Qed.

Lemma exec_qinv c q : forall p e,
  Forall okinstr q -> p_taken p ++ e_in e = e_arrived e -> qinv (exec c q p e).
Proof.
  induction q as [|[f|g err|w h|x] r IH]; intros p e OK Q; cbn [exec];
    try (split; [rewrite taken_finish; exact Q|exact I]); inversion OK as [|? ? OKi OKr]; subst.
  - apply IH; [exact OKr|]. rewrite (OKi p). exact Q.
  - destruct (g p); [apply IH; assumption|]. split; [rewrite taken_finish; exact Q|exact I].
  - destruct (ready c w p e) eqn:RD; [|split; assumption].
    apply IH; [exact OKr|]. destruct w as [| |[|k] it|it| | |]; try exact Q.
    simpl in RD |- *. destruct (e_in e) as [|x l]; [discriminate RD|]. simpl. rewrite <- app_assoc. exact Q.
Qed.

Lemma step_qinv c t x s : qinv s -> qinv (step c t x s).
Proof.
  destruct s as [[th p] e]. intros S. pose proof S as [Q OK]. destruct x; cbn [step].
  - destruct th; [apply exec_qinv; [apply program_ok|exact Q]|exact S].
  - destruct th as [|q]; [exact S|apply exec_qinv; assumption].
  - destruct th; [exact S|]. split; [|exact I]. change (add_ret 0 (glue p)) with (finish 0 p). rewrite taken_finish. exact Q.
  - destruct th as [|[|[f|g err|w [| |f y]|y] r]]; try exact S; inversion OK as [|? ? OKi OKr]; subst.
    + apply exec_qinv; assumption.
    + split; [|exact I]. rewrite taken_finish, (OKi p). exact Q.
  - destruct k; exact S.
  - destruct (e_dq e); [exact S|]. destruct (e_peer e && Nat.ltb (length (e_out e)) (cap c)); exact S.
  - destruct (Nat.ltb (length (e_in e)) (incap c)); [|exact S].
    split; [cbn [e_in e_arrived]; rewrite app_assoc, Q; reflexivity|exact OK].
  - exact S.
Qed.

(* for EVERY history of calls, polls, drops, time-outs and peer traffic: the batches taken so far,
   followed by the batches still queued, are exactly the batches that arrived, in arrival order *)
Theorem queue_exactly_once c t es s : qinv s -> qinv (run c t es s).
Proof.
  unfold run. revert s. induction es as [|x es IH]; intros s Q; simpl; [exact Q|].
  apply IH, step_qinv, Q.
Qed.

Lemma exec_arrived c q : forall p e, e_arrived (snd (exec c q p e)) = e_arrived e.
Proof.
  induction q as [|[f|g err|w h|x] r IH]; intros p e; simpl; auto.
  - destruct (g p); auto.
  - destruct (ready c w p e); [rewrite IH|reflexivity]. destruct w as [| |[|k] it|it| | |]; reflexivity.
Qed.

Lemma step_arrived c t x s : prefix (e_arrived (snd s)) (e_arrived (snd (step c t x s))).
Proof.
  destruct s as [[th p] e]. pose proof (prefix_refl (e_arrived e)) as Z.
  destruct x; simpl; try (destruct th; simpl; rewrite ?exec_arrived; exact Z).
  - destruct th as [|[|[f|g err|w [| |f y]|y] r]]; simpl; rewrite ?exec_arrived; exact Z.
  - destruct k; exact Z.
  - destruct (e_dq e); [exact Z|]. destruct (e_peer e && Nat.ltb (length (e_out e)) (cap c)); exact Z.
  - destruct (Nat.ltb (length (e_in e)) (incap c)); [apply prefix_app|exact Z].
Qed.

Lemma run_arrived c t es : forall s, prefix (e_arrived (snd s)) (e_arrived (snd (run c t es s))).
Proof.
  unfold run. induction es as [|x es IH]; intros s; simpl; [apply prefix_refl|].
  eapply prefix_trans; [apply step_arrived|apply IH].
Qed.

(* a dropped recv()/recv_multipart(): nothing taken, nothing delivered, buffer untouched; the
   queue holds what it held (plus what arrived meanwhile) *)
Theorem recv_cancel_keeps_message c t o p0 e0 es q p e :
  (o = ORecv \/ o = ORecvMp) -> quiet p0 -> p_taken p0 ++ e_in e0 = e_arrived e0 -> bg es ->
  run c t (Call o :: es) (TIdle, p0, e0) = (TPark q, p, e) ->
  p_taken (glue p) = p_taken p0 /\ p_buf (glue p) = p_buf p0 /\ p_app (glue p) = p_app p0 /\
  p_reg (glue p) = None /\
  exists l, e_in e = e_in e0 ++ l /\ e_arrived e = e_arrived e0 ++ l.
Proof.
  intros O Q QI B R.
  assert (PL : plain t o p0 = true) by (destruct O; subst; destruct t; reflexivity).
  pose proof (cancel_is_noop c t o p0 e0 es q p e Q PL B R) as C.
  injection C as _ _ _ _ _ _ CB _ _ _ CT CA.
  assert (QE : qinv (TPark q, p, e)).
  { rewrite <- R. apply queue_exactly_once. split; [exact QI|exact I]. }
  destruct QE as [QE _].
  destruct (run_arrived c t (Call o :: es) (TIdle, p0, e0)) as [l AR]. rewrite R in AR. cbn [snd] in AR.
  repeat split; auto.
  exists l. split; [|exact AR].
  assert (TK : p_taken p = p_taken p0). { destruct (p_fperm p); exact CT. }
  rewrite TK, AR, <- QI, <- app_assoc in QE. apply app_inv_head in QE. exact QE.
Qed.

(* DEALER shared by two tasks (`dw` in Model/Cancel.v): somebody still owes B its notification; the notifiers in
   use are older than w_next; an open transaction and a last part in flight exclude each other *)
Definition dwinv (s : dw) : Prop :=
  owed s = true /\
  (forall k, w_tx s = Some k -> (k < w_next s)%nat /\ w_last s = None) /\
  (forall k, w_last s = Some k -> (k < w_next s)%nat).

Lemma b_check_inv s : dwinv s -> dwinv (b_check s).
Proof.
  intros (_ & T & L). unfold b_check. destruct (w_tx s) as [j|] eqn:E; (split; [|split; assumption]); unfold owed; simpl.
  - rewrite Nat.eqb_refl. reflexivity.
  - reflexivity.
Qed.

Lemma dwstep_inv s x : x <> DLastDrop -> dwinv s -> dwinv (dwstep s x).
Proof.
  intros ND I. pose proof I as (O & T & L). destruct s as [tx nx la wa wo dn]. unfold owed in O. simpl in O, T, L.
  destruct x; simpl; try congruence.
  - destruct la as [l|], tx as [j|]; try exact I. split; [|split]; simpl.
    + unfold owed; simpl. destruct wa as [k|]; [|reflexivity]. simpl in O. rewrite !orb_false_r in O. rewrite O. reflexivity.
    + intros k [= <-]. auto.
    + intros k [=].
  - destruct la as [l|], tx as [j|]; try exact I. split; [|split]; simpl.
    + unfold owed; simpl. destruct wa as [k|]; [|reflexivity]. rewrite orb_false_r in O |- *. exact O.
    + intros k [=].
    + intros k [= <-]. apply (T j eq_refl).
  - destruct la as [l|]; [|exact I]. split; [|split]; simpl.
    + unfold owed; simpl. destruct wa as [k|]; [|reflexivity]. rewrite (Nat.eqb_sym k l). destruct wo; [reflexivity|].
      destruct (l =? k)%nat; [reflexivity|]. simpl in *. rewrite orb_false_r in *. exact O.
    + intros k E. split; [apply (T k E)|reflexivity].
    + intros k [=].
  - destruct dn; [exact I|]. destruct wa; [exact I|]. apply b_check_inv, I.
  - destruct wa; [|exact I]. destruct wo; [|exact I]. apply b_check_inv, I.
Qed.

(* A finishing its message (at most: start the last part, return from it) wakes B *)
Theorem dealer_waiter_served s k : dwinv s -> w_wait s = Some k ->
  exists es, no_drop es = true /\ (forall x, In x es -> x = DLast \/ x = DLastDone) /\
             w_woken (dwrun es s) = true.
Proof.
  intros (O & T & L) W. destruct s as [tx nx la wa wo dn]. unfold owed in O. simpl in *. subst wa.
  destruct wo.
  - exists []. repeat split; auto. intros x [].
  - destruct tx as [j|].
    + destruct (T j eq_refl) as [_ T2]. subst la. simpl in O. rewrite orb_false_r in O.
      exists [DLast; DLastDone]. split; [reflexivity|]. split; [intros x [<-|[<-|[]]]; auto|].
      unfold dwrun. simpl. rewrite Nat.eqb_sym. exact O.
    + destruct la as [j|]; [|discriminate O]. simpl in O.
      exists [DLastDone]. split; [reflexivity|]. split; [intros x [<-|[]]; auto|].
      unfold dwrun. simpl. rewrite Nat.eqb_sym. exact O.
Qed.

(* KNOWN FINDING: A's last part is dropped: B is parked on a notifier nobody holds any more *)
Definition dw_bad : dw := dwrun [DPart; DCallB; DLast; DLastDrop] dw0.

(* B parked on notifier k, not woken, while every notifier in use or still to come is a later one:
   whatever happens, B is never woken and never served *)
Lemma dw_stranded k es : forall tx nx la,
  (k < nx)%nat -> (forall j, tx = Some j -> (k < j < nx)%nat) -> (forall j, la = Some j -> (k < j < nx)%nat) ->
  let s := dwrun es (mkDw tx nx la (Some k) false false) in
  w_wait s = Some k /\ w_woken s = false /\ w_done s = false.
Proof.
  unfold dwrun. induction es as [|x es IH]; intros tx nx la NX T L; simpl; [auto|].
  destruct x; simpl.
  - destruct la as [l|], tx as [j|]; try (apply IH; assumption).
    apply IH; [lia|intros j [= <-]; lia|intros j [=]].
  - destruct la as [l|], tx as [j|]; try (apply IH; assumption).
  - destruct la as [l|]; [|apply IH; assumption].
    destruct (Nat.eqb_spec k l) as [->|_]; [destruct (L l eq_refl); lia|].
    apply IH; [assumption|assumption|intros j [=]].
  - apply IH; [assumption|assumption|intros j [=]].
  - apply IH; assumption.
  - apply IH; assumption.
Qed.

(* configuration (pipes of capacity 1), start state and projection of the witnesses in Props/C09.v *)
Definition cfg1 (mandf tmo : bool) : Cfg := mkCfg 1 1 4 mandf tmo tmo true.
Definition st0 : state := (TIdle, p0, e0 true).
Definition pr (s : state) : Proto := snd (fst s).
