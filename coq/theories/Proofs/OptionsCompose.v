(* How the shutdown coordinator (Model/Shutdown.v) reads the LINGER option. *)
From RZ Require Import Base.Prelude Model.Options Model.Shutdown.

Definition linger_cfg (o : opts) : linger := match linger_of o with None => LInf | Some d => LMs d end.
