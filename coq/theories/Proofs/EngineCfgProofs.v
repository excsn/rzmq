(* The engine configuration derived from the options (Model/EngineCfg.v): the physical batch ceiling admits what
   the logical limits admit (`slot_holds_batch`, C01); PLAIN / CURVE once configured stay configured through every
   option history (`pc_enabled_history`, C06); the copied fields are the options' values (`cfg_reads_options`). *)
From RZ Require Import Base.Prelude Model.Engine Model.Options Model.EngineCfg Proofs.OptionsProofs.
Local Open Scope N_scope.

Fixpoint longs (l : list N) : nat :=
  match l with [] => O | n :: r => ((if (n <? LONG_FROM)%N then O else 1%nat) + longs r)%nat end.

Lemma sum_framed l : sum (map framed l) = sum l + 2 * N.of_nat (length l) + 7 * N.of_nat (longs l).
Proof.
  induction l as [|n r IH]; [reflexivity|].
  cbn [map sum fold_right length longs]. fold (sum (map framed r)). fold (sum r). rewrite IH.
  unfold framed, LONG_FROM, SHORT_OVERHEAD, LONG_OVERHEAD. destruct (N.ltb_spec n 256); lia.
Qed.
Lemma longs_weight l : 256 * N.of_nat (longs l) <= sum l.
Proof.
  induction l as [|n r IH]; [cbn; lia|]. cbn [sum fold_right longs]. fold (sum r). unfold LONG_FROM.
  destruct (N.ltb_spec n 256); lia.
Qed.
Lemma longs_le_length l : (longs l <= length l)%nat.
Proof. induction l as [|n r IH]; cbn [longs length]; [lia|]. destruct (n <? LONG_FROM)%N; lia. Qed.
Lemma round_up_ge page x : 0 < page -> x <= round_up page x.
Proof. unfold round_up. intros H. nia. Qed.
Lemma round_up_multiple page x : 0 < page -> (round_up page x) mod page = 0.
Proof. unfold round_up. intros H. apply N.mod_mul. lia. Qed.

Theorem slot_holds_batch page target count (sizes : list N) :
  0 < page -> N.of_nat (length sizes) <= count -> sum sizes <= target ->
  sum (map framed sizes) <= slot_size page target count.
Proof.
  intros Hp Hl Hs. unfold slot_size. eapply N.le_trans; [|apply round_up_ge; exact Hp].
  rewrite sum_framed. unfold slot_raw, LONG_FROM, LONG_OVERHEAD, SHORT_OVERHEAD.
  pose proof (longs_weight sizes) as Hw. pose proof (longs_le_length sizes) as Hk.
  set (k := N.of_nat (longs sizes)) in *. set (n := N.of_nat (length sizes)) in *.
  assert (Hk' : k <= n) by (subst k n; lia).
  assert (Hkt : k <= target / 256) by (apply N.div_le_lower_bound; lia).
  destruct (N.min_spec count (target / 256)) as [[_ ->]|[_ ->]]; nia.
Qed.

Lemma bool_of_true v : bool_of v = true <-> v = VB true.
Proof. destruct v as [| |[]| |]; cbn; split; congruence. Qed.

Lemma security_enabled_iff o :
  security_enabled o = true <->
  o F_plain_options_enabled = VB true \/ o F_noise_xx_options_enabled = VB true \/ o F_curve_options_enabled = VB true.
Proof.
  unfold security_enabled, sec_fields. cbn [existsb]. rewrite orb_false_r, !orb_true_iff, !bool_of_true. tauto.
Qed.

(* PLAIN or CURVE configured *)
Definition pc_enabled (o : opts) : bool := bool_of (o F_plain_options_enabled) || bool_of (o F_curve_options_enabled).
Lemma pc_enabled_security o : pc_enabled o = true -> security_enabled o = true.
Proof.
  unfold pc_enabled. rewrite security_enabled_iff, orb_true_iff, !bool_of_true. tauto.
Qed.

(* the option ids that configure PLAIN or CURVE *)
Definition mech_ids : list Z :=
  [PLAIN_SERVER; PLAIN_USERNAME; PLAIN_PASSWORD; CURVE_SERVER; CURVE_SECRET_KEY; CURVE_SERVER_KEY].

(* setting ANY PLAIN / CURVE option successfully switches the mechanism on *)
Lemma mech_option_sets_pc o id b o' : In id mech_ids -> apply_opt o id b = inl o' -> pc_enabled o' = true.
Proof.
  intros Hin H. unfold pc_enabled. cbn [mech_ids In] in Hin.
  destruct Hin as [<-|[<-|[<-|[<-|[<-|[<-|[]]]]]]].
  1-3: rewrite (apply_sets_flags o _ b o' _ F_plain_options_enabled H eq_refl) by (now left); reflexivity.
  all: rewrite (apply_sets_flags o _ b o' _ F_curve_options_enabled H eq_refl) by (now left); apply orb_true_r.
Qed.

(* no rule writes into plain.enabled or curve.enabled as its own field, and the flag lists only ever write `true`
   (OptionsProofs.apply_keeps_flag): once PLAIN or CURVE is configured, no later set_option call - of any id, with
   any bytes - unconfigures it *)
Theorem pc_enabled_step o id b o' : apply_opt o id b = inl o' -> pc_enabled o = true -> pc_enabled o' = true.
Proof.
  unfold pc_enabled. rewrite !orb_true_iff, !bool_of_true.
  intros H [Hp|Hp]; [left|right]; (apply (apply_keeps_flag o id b o' _ H); [reflexivity | exact Hp]).
Qed.
Theorem pc_enabled_history ops : forall o, pc_enabled o = true -> pc_enabled (fst (apply_all o ops)) = true.
Proof.
  induction ops as [|[id b] r IH]; intros o H; [exact H|]. cbn [apply_all].
  destruct (apply_opt o id b) as [o'|e] eqn:E.
  - specialize (IH o' (pc_enabled_step o id b o' E H)). destruct (apply_all o' r). exact IH.
  - specialize (IH o H). destruct (apply_all o r). exact IH.
Qed.

(* the copied configuration fields: what the engine reads IS the option's value *)
Theorem cfg_reads_options o :
  cfg_heartbeat_ivl o = heartbeat_ivl_of o /\ cfg_heartbeat_timeout o = heartbeat_timeout_of o
  /\ cfg_handshake_timeout o = handshake_ivl_of o /\ cfg_max_msg_size o = maxmsgsize_of o
  /\ cfg_allow_zmtp2 o = bool_of (o F_allow_zmtp2).
Proof. repeat split; reflexivity. Qed.
