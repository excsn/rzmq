(* Model/Actor.v: an engine output with an error closes the engine, and what the session queues for the application
   is exactly what the engine delivers for the whole byte stream (actor_forwards_engine_deliveries). *)
From RZ Require Import Base.Prelude Base.Stepper Model.Codec Proofs.CodecProofs Model.Engine Proofs.EngineProofs Model.Actor.
Local Open Scope N_scope.

Lemma deliveries_app a b : deliveries (a ++ b) = deliveries a ++ deliveries b.
Proof. unfold deliveries. rewrite map_app, concat_app. reflexivity. Qed.

Lemma etrans_err_closes cfg st b st' o : etrans cfg st b st' o -> has_err o = true -> e_phase st' = PClosed.
Proof.
  destruct 1; try reflexivity; unfold cork_out; try destruct (c_server cfg); try destruct (_ && _); discriminate.
Qed.

Lemma has_err_app a b : has_err (a ++ b) = has_err a || has_err b.
Proof. unfold has_err. apply existsb_app. Qed.

Lemma Run_err_closed cfg st b st' r o :
  Run (estep cfg) st b st' r o -> has_err o = true -> e_phase st' = PClosed.
Proof.
  induction 1 as [s b0 Hn | s b0 s1 n o1 s2 r0 o2 Hs HR IH]; [discriminate|].
  rewrite has_err_app. intros H. apply orb_true_iff in H. destruct H as [H|H]; [|auto].
  pose proof (etrans_err_closes _ _ _ _ _ (estep_etrans _ _ _ _ _ _ Hs) H) as Hc.
  inversion HR; subst; auto.
  rewrite estep_closed in * by exact Hc. discriminate.
Qed.

Lemma has_err_visible o : has_err (visible o) = has_err o.
Proof. induction o as [|x o IH]; [reflexivity|]. destruct x; cbn; auto. Qed.
Lemma deliveries_cons x o :
  deliveries (x :: o) = (match x with ODeliver m => [m] | _ => [] end) ++ deliveries o.
Proof. reflexivity. Qed.
Lemma deliveries_visible o : deliveries (visible o) = deliveries o.
Proof.
  unfold visible. induction o as [|x o IH]; [reflexivity|].
  destruct x; cbn [filter]; rewrite ?deliveries_cons, ?IH; reflexivity.
Qed.

Lemma e_net_err_closed cfg g d t :
  has_err (snd (e_net cfg g d t)) = true -> e_phase (g_st (fst (e_net cfg g d t))) = PClosed.
Proof.
  destruct (e_net_Run cfg g d t) as (o & HR & ->). rewrite has_err_visible. exact (Run_err_closed _ _ _ _ _ _ HR).
Qed.

Lemma a_reads_fatal k cfg cs : forall a, a_fatal a = true -> a_reads k cfg a cs = a.
Proof.
  induction cs as [|[d t] cs IH]; intros a H; [reflexivity|].
  cbn [a_reads]. unfold a_read at 1. rewrite H. apply IH, H.
Qed.

(* what the actor has queued for the application = the deliveries in the engine's outputs; after a fatal
   error the actor reads nothing more, and the closed engine would have delivered nothing more *)
Lemma a_reads_ingress cfg : forall cs a,
  a_fatal a = false \/ e_phase (g_st (a_eng a)) = PClosed ->
  a_ingress (a_reads true cfg a cs) = a_ingress a ++ deliveries (snd (nets cfg (a_eng a) cs)).
Proof.
  induction cs as [|[d t] cs IH]; intros a Hf; [cbn; now rewrite app_nil_r|].
  destruct (a_fatal a) eqn:Ef.
  - destruct Hf as [Hf|Hc]; [discriminate|]. rewrite a_reads_fatal, nets_closed by assumption. now rewrite app_nil_r.
  - cbn [nets a_reads]. unfold a_read at 1. rewrite Ef, andb_false_r.
    pose proof (e_net_err_closed cfg (a_eng a) d t) as Hcl.
    destruct (e_net cfg (a_eng a) d t) as [g1 o1]. cbn [fst snd] in Hcl. rewrite IH; cbn [a_eng a_ingress a_fatal].
    + destruct (nets cfg g1 cs) as [g2 o2]. cbn [snd]. rewrite deliveries_app, app_assoc. reflexivity.
    + destruct (has_err o1); [right; auto | left; reflexivity].
Qed.

Theorem actor_forwards_engine_deliveries cfg t cs :
  a_ingress (a_reads true cfg (a_new t) cs) =
  deliveries (snd (e_net cfg (e_new t) (concat (map fst cs)) 0)).
Proof.
  rewrite a_reads_ingress by (left; reflexivity). rewrite <- nets_one_read by apply e_new_quiescent. reflexivity.
Qed.

(* the handler at the pinned commit dropped deliveries made during the handshake read *)
Definition legacy_witness_cfg : ecfg :=
  {| c_server := true; c_stype := s_PULL; c_rid := None; c_sec_enabled := false; c_allow_v2 := true;
     c_use_plain := false; c_use_curve := false; c_use_noise := false; c_plain_user := None; c_plain_pass := None;
     c_opaque_ok := false; c_hb_ivl := None; c_hb_timeout := None; c_cork := false; c_zc := false; c_maxsz := (-1)%Z |}.
Definition legacy_witness_stream : bytes :=
  (255 :: repeat 0 8 ++ [127; 3; 0] ++ mech_field s_NULL ++ [0] ++ repeat 0 31) ++
  enc_codec (cmd_frame ((5 :: s_READY) ++ enc_prop s_SocketType s_PUSH)) ++
  enc_codec (data_frame false [1; 2; 3]).

Theorem legacy_handler_drops_refuted :
  a_ingress (a_reads false legacy_witness_cfg (a_new 0) [(legacy_witness_stream, 0)]) = [] /\
  deliveries (snd (e_net legacy_witness_cfg (e_new 0) legacy_witness_stream 0)) = [[data_frame false [1; 2; 3]]].
Proof. vm_compute. split; reflexivity. Qed.
