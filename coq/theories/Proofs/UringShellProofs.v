(* Model/UringShell.v: on histories without close paths and timer events the io_uring handler and the tokio session
   stay in the simulation [sim] (same engine, pipe ++ stash = the session's ingress, same control messages), and
   the session is a function of the byte stream alone; then the configurations in which the two differ. *)
From RZ Require Import Base.Prelude Base.Stepper Model.Codec Proofs.CodecProofs Model.Engine
  Proofs.EngineProofs Model.Actor Proofs.ActorProofs Proofs.EngineSafety Model.Spill Proofs.SpillProofs
  Model.UringShell.
Local Open Scope N_scope.

Lemma e_net_flags cfg g d t :
  UringShell.has_panic (snd (e_net cfg g d t)) = false /\
  close_some (snd (e_net cfg g d t)) = false /\ close_none (snd (e_net cfg g d t)) = false.
Proof.
  repeat split; apply not_true_is_false; intros E.
  (* an output the flag answers to would be a panic or a close, which [e_net_out] rules out *)
  all: apply existsb_exists in E; destruct E as (x & (H1 & _ & H3)%e_net_out & Hm); destruct x; try discriminate Hm.
  - exact (H1 eq_refl).
  - exact (H3 _ eq_refl).
  - exact (H3 _ eq_refl).
Qed.

Lemma deliver_all_conserves : forall ms s rs, forallb res_open rs = true ->
  let '(s1, o, _) := deliver_all s ms rs in
  o ++ s_q s1 = s_q s ++ ms /\ s_closing s1 = s_closing s.
Proof.
  induction ms as [|m ms IH]; intros s rs Hrs; [cbn; rewrite app_nil_r; auto|].
  cbn [deliver_all].
  assert (Hr : res_open (hd TFull rs) = true /\ forallb res_open (tl rs) = true)
    by (destruct rs; cbn in *; [auto|apply andb_true_iff, Hrs]).
  destruct Hr as [Hr Ht].
  pose proof (sp_step_conserves s (SDeliver m (hd TFull rs)) Hr) as H1.
  pose proof (sp_step_closing s (SDeliver m (hd TFull rs)) eq_refl) as H2.
  cbn [sp_step ev_msgs] in H1, H2.
  destruct (sp_deliver s m (hd TFull rs)) as [s1 o1]. cbn [fst snd] in *.
  specialize (IH s1 (tl rs) Ht). destruct (deliver_all s1 ms (tl rs)) as [[s2 o2] c2].
  destruct IH as (I1 & I2). split; [|congruence].
  rewrite <- app_assoc, I1, app_assoc, H1, <- app_assoc. reflexivity.
Qed.

Lemma e_tick_disabled cfg g t :
  c_hb_ivl cfg = None -> h_last_ping (g_hb g) = None -> e_tick cfg g t = (g, []).
Proof.
  intros Hi Hp. unfold e_tick. destruct (e_phase (g_st g)); try reflexivity.
  destruct (e_version (g_st g)) as [[|]|]; try reflexivity;
    rewrite Hp, Hi; destruct (c_hb_timeout cfg); reflexivity.
Qed.
Lemma e_net_last_ping cfg g d t : h_last_ping (g_hb (fst (e_net cfg g d t))) = h_last_ping (g_hb g).
Proof. unfold e_net. destruct (pump _ _ _ _ _) as [[st r] o]. reflexivity. Qed.

Lemma t_run_app cfg : forall a b k, t_run cfg k (a ++ b) = t_run cfg (t_run cfg k a) b.
Proof. induction a as [|x a IH]; intros b k; [reflexivity|]. cbn. apply IH. Qed.

Lemma t_run_fatal cfg k : t_fatal k = true -> forall is, t_run cfg k is = k.
Proof. intros H. induction is as [|i is IH]; [reflexivity|]. cbn. unfold t_step. rewrite H. exact IH. Qed.

Lemma t_absorb_nil k : t_fatal k = false -> t_absorb k (t_eng k) [] = k.
Proof.
  destruct k as [g f i c n]. unfold t_absorb.
  cbn [t_eng t_fatal t_ingress t_ctrl t_net has_err existsb deliveries ctrls sends map concat filter].
  intros ->. rewrite !app_nil_r. reflexivity.
Qed.

(* what relates the two shells: while the tokio session is alive both hold the same engine and the handler is not
   closing; once the session has given up (fatal error) the handler is closing or its engine is Closed - since the
   PeerError arm no longer sets is_closing itself, the handler may still be handed reads before the worker's
   close_initiated pass, and a Closed engine ignores them *)
Definition sim_inv (h : ush) (k : tsh) : Prop :=
  if t_fatal k then s_closing (u_sp h) = true \/ e_phase (g_st (u_eng h)) = PClosed
  else u_eng h = t_eng k /\ s_closing (u_sp h) = false.

(* the handler `h`, which has put `X` into the pipe and sent `Y` to the socket so far, against the session `k`:
   the session's ingress is the pipe followed by the stash *)
Definition sim (X : list msgt) (Y : list ctrl) (h : ush) (k : tsh) : Prop :=
  u_dead h = false /\ sim_inv h k /\ h_last_ping (g_hb (u_eng h)) = None /\
  X ++ s_q (u_sp h) = t_ingress k /\ Y = t_ctrl k.

Lemma sim_new t : sim [] [] (u_new t) (t_new t).
Proof. repeat split. Qed.

(* a handler step the session does not see: engine and closing flag untouched, stashed messages may enter the pipe
   (Y ++ [] as u_step_sim will ask for it: such a step sends no control message) *)
Lemma sim_quiet X Y h k h1 P :
  sim X Y h k -> u_dead h1 = false -> u_eng h1 = u_eng h -> s_closing (u_sp h1) = s_closing (u_sp h) ->
  P ++ s_q (u_sp h1) = s_q (u_sp h) -> sim (X ++ P) (Y ++ []) h1 k.
Proof.
  unfold sim, sim_inv. intros (Hd & Hi & Hl & HX & HY) Hd1 He Hc Hq.
  rewrite He, Hc, app_nil_r, <- app_assoc, Hq. auto.
Qed.

Lemma sim_spill X Y h k e n :
  sim X Y h k -> ev_open e = true -> ev_not_eof e = true -> ev_msgs e = [] ->
  sim (X ++ snd (sp_step (u_sp h) e)) (Y ++ [])
      {| u_eng := u_eng h; u_sp := fst (sp_step (u_sp h) e); u_close_reqs := n; u_dead := false |} k.
Proof.
  intros Hs Ho Hn Hm. apply (sim_quiet X Y h); cbn [u_dead u_eng u_sp]; auto using sp_step_closing.
  rewrite sp_step_conserves, Hm, app_nil_r by exact Ho. reflexivity.
Qed.

Section Sim.
Variable cfg : ecfg.
(* with `tick = true` the history may hold heartbeat ticks, and [tick_off] then reads: the heartbeat is switched off
   in the configuration; with `tick = false` it holds no ticks and [tick_off] asks nothing *)
Variable tick : bool.
Hypothesis tick_off : if tick then c_hb_ivl cfg = None else True.

Lemma u_step_sim X Y h k i :
  (if tick then uin_plain_tick else uin_plain) i = true -> sim X Y h k ->
  let '(h1, o1) := u_step cfg h i in
  sim (X ++ uo_pipe o1) (Y ++ uo_ctrl o1) h1 (t_run cfg k (to_sin i)).
Proof.
  intros Hi Hs. pose proof Hs as (Hd & Hv & Hlp & HX & HY). unfold u_step. rewrite Hd.
  destruct i as [|d t rs| | | |rs dd|dr| | |t|]; cbn [to_sin t_run];
    try (destruct tick; cbn in Hi; discriminate).
  - apply (sim_quiet X Y h); auto.
  - (* UNet *)
    assert (Hrs : forallb res_open rs = true) by (destruct tick; exact Hi).
    unfold t_step. unfold sim_inv in Hv. destruct (t_fatal k) eqn:Ef.
    + (* the session has already given up: the handler drops the read, or its Closed engine ignores it *)
      destruct (s_closing (u_sp h)) eqn:Ecl; [apply (sim_quiet X Y h); auto|].
      destruct Hv as [Hv|Hv]; [discriminate|].
      destruct (e_net_closed cfg (u_eng h) d t Hv) as [Ho Hph].
      pose proof (e_net_last_ping cfg (u_eng h) d t) as Hl.
      destruct (e_net cfg (u_eng h) d t) as [g' o]. cbn [fst snd] in *. subst o.
      unfold sim, sim_inv. cbn. rewrite Ef, !app_nil_r. repeat split; auto. congruence.
    + destruct Hv as [He Hc]. rewrite Hc, <- He.
      destruct (e_net_flags cfg (u_eng h) d t) as (Hnp & Hcs & Hcn).
      pose proof (e_net_last_ping cfg (u_eng h) d t) as Hl.
      pose proof (e_net_err_closed cfg (u_eng h) d t) as Hec.
      destruct (e_net cfg (u_eng h) d t) as [g' o]. cbn [fst snd] in *.
      rewrite Hnp. unfold u_apply. rewrite Hcs, Hcn.
      pose proof (deliver_all_conserves (deliveries o) (u_sp h) rs Hrs) as Hda.
      destruct (deliver_all (u_sp h) (deliveries o) rs) as [[sp1 piped] pc]. destruct Hda as (D1 & D2).
      unfold sim, sim_inv, t_absorb. cbn [u_eng u_sp u_dead uo_pipe uo_ctrl t_eng t_fatal t_ingress t_ctrl].
      split; [exact Hd|]. split; [|split; [congruence|split; [|congruence]]].
      * destruct (has_err o); [right; apply Hec; reflexivity|split; [reflexivity|congruence]].
      * rewrite <- app_assoc, D1, app_assoc, HX. reflexivity.
  - exact (sim_spill X Y h k SAttach _ Hs eq_refl eq_refl eq_refl).
  - exact (sim_spill X Y h k SResume _ Hs eq_refl eq_refl eq_refl).
  - (* UPrepare *)
    assert (Hrs : forallb res_open rs = true) by (destruct tick; exact Hi).
    pose proof (sim_spill X Y h k (SPrepare rs dd) (u_close_reqs h) Hs Hrs eq_refl eq_refl) as H.
    cbn [sp_step] in H. destruct (sp_prepare (u_sp h) rs dd) as [sp1 piped]. exact H.
  - exact (sim_spill X Y h k (SPoll dr) _ Hs eq_refl eq_refl eq_refl).
  - (* UTick: only when tick = true, and then the heartbeat is off and the session does nothing *)
    destruct tick eqn:Et; [|cbn in Hi; discriminate].
    replace (t_step cfg k (STick t)) with k; [apply (sim_quiet X Y h); auto|].
    unfold t_step. unfold sim_inv in Hv. destruct (t_fatal k) eqn:Ef; [reflexivity|].
    destruct Hv as [He _]. rewrite <- He, (e_tick_disabled cfg (u_eng h) t tick_off Hlp), He.
    symmetry. apply t_absorb_nil, Ef.
Qed.

Lemma shell_sim : forall is X Y h k,
  forallb (if tick then uin_plain_tick else uin_plain) is = true -> sim X Y h k ->
  let '(h', l) := u_run cfg h is in sim (X ++ l_pipe l) (Y ++ l_ctrl l) h' (t_run cfg k (peer_of is)).
Proof.
  induction is as [|i is IH]; intros X Y h k Hp Hs.
  - cbn. rewrite !app_nil_r. exact Hs.
  - cbn [forallb] in Hp. apply andb_true_iff in Hp. destruct Hp as [Hi Hp].
    cbn [u_run]. change (peer_of (i :: is)) with (to_sin i ++ peer_of is). rewrite t_run_app.
    pose proof (u_step_sim X Y h k i Hi Hs) as H1. destruct (u_step cfg h i) as [h1 o1].
    specialize (IH _ _ _ _ Hp H1). destruct (u_run cfg h1 is) as [h2 l].
    cbn [l_pipe l_ctrl]. rewrite !app_assoc. exact IH.
Qed.
End Sim.

(* closed form of the tokio shell over network reads: everything is a function of the byte stream *)
Lemma t_run_nets cfg : forall cs k,
  t_fatal k = false \/ e_phase (g_st (t_eng k)) = PClosed ->
  let o := snd (nets cfg (t_eng k) cs) in
  let k' := t_run cfg k (map (fun '(d, t) => SNet d t) cs) in
  t_ingress k' = t_ingress k ++ deliveries o /\ t_ctrl k' = t_ctrl k ++ ctrls o.
Proof.
  induction cs as [|[d t] cs IH]; intros k Hf; [cbn; rewrite !app_nil_r; auto|].
  destruct (t_fatal k) eqn:Ef.
  - (* given up: the session ignores the reads, and its Closed engine would emit nothing *)
    destruct Hf as [Hf|Hcl]; [discriminate|]. rewrite (t_run_fatal cfg k Ef), nets_closed by exact Hcl.
    cbn. rewrite !app_nil_r. auto.
  - cbn [nets map t_run].
    replace (t_step cfg k (SNet d t)) with (let '(g', o) := e_net cfg (t_eng k) d t in t_absorb k g' o)
      by (unfold t_step; rewrite Ef; reflexivity).
    pose proof (e_net_err_closed cfg (t_eng k) d t) as Hcl.
    destruct (e_net cfg (t_eng k) d t) as [g1 o1]. cbn [fst snd] in Hcl.
    specialize (IH (t_absorb k g1 o1)). cbn [t_absorb t_eng t_fatal t_ingress t_ctrl] in IH.
    destruct (nets cfg g1 cs) as [g2 o2]. cbn [snd] in *.
    destruct IH as [I1 I2]; [destruct (has_err o1); [right; auto|left; reflexivity]|].
    unfold ctrls in *. rewrite deliveries_app, map_app, concat_app, I1, I2, <- !app_assoc. auto.
Qed.

Definition reads_of (is : list uin) : list (bytes * N) :=
  concat (map (fun i => match i with UNet d t _ => [(d, t)] | _ => [] end) is).

Lemma peer_of_reads : forall is, forallb uin_plain is = true ->
  peer_of is = map (fun '(d, t) => SNet d t) (reads_of is) /\ concat (map fst (reads_of is)) = bytes_of is.
Proof.
  induction is as [|i is IH]; intros H; [split; reflexivity|].
  cbn [forallb] in H. apply andb_true_iff in H. destruct H as [Hi H]. destruct (IH H) as [I1 I2].
  unfold peer_of, reads_of, bytes_of in *. cbn [map concat].
  destruct i; cbn in Hi; try discriminate; cbn [to_sin app map concat fst]; rewrite ?I1, ?I2; split; reflexivity.
Qed.

(* the session is a function of the byte stream, however it is cut into reads *)
Lemma t_run_stream cfg t is : forallb uin_plain is = true ->
  let k := t_run cfg (t_new t) (peer_of is) in
  let o := snd (e_net cfg (e_new t) (bytes_of is) 0) in
  t_ingress k = deliveries o /\ t_ctrl k = ctrls o.
Proof.
  intros Hp. destruct (peer_of_reads is Hp) as [P1 P2].
  pose proof (t_run_nets cfg (reads_of is) (t_new t) (or_introl eq_refl)) as HT.
  cbn [t_new t_eng t_ingress t_ctrl app] in HT.
  rewrite (nets_one_read cfg _ _ (e_new_quiescent cfg t)), P2, <- P1 in HT. exact HT.
Qed.

(* configurations in which the two shells are NOT equivalent *)
Definition hb_cfg : ecfg :=
  {| c_server := true; c_stype := s_PULL; c_rid := None; c_sec_enabled := false; c_allow_v2 := true;
     c_use_plain := false; c_use_curve := false; c_use_noise := false; c_plain_user := None; c_plain_pass := None;
     c_opaque_ok := false; c_hb_ivl := Some 100000000; c_hb_timeout := Some 300000000; c_cork := false; c_zc := false;
     c_maxsz := (-1)%Z |}.
(* the peer completes the handshake, sends one message and then stays silent; ticks at 200 ms and 600 ms *)
Definition hb_history : list uin := [UNet legacy_witness_stream 0 [TOk]; UTick 200000000; UTick 600000000].

Definition is_ping (x : eout) : bool :=
  match x with OSend b _ => match b with 4 :: _ :: 4 :: 80 :: 73 :: 78 :: 71 :: _ => true | _ => false end | _ => false end.
