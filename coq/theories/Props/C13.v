(* C13 - PUSH and DEALER hand every message to exactly one connected peer, rotating round-robin
   over the peers that can currently accept it; nobody that keeps accepting is starved; peers join
   and leave mid-stream without a message being sent twice; a send waiting for a first peer
   proceeds once one has connected.
   The lemmas these rest on are in Proofs/BalancerProofs.v, RouteProofs.v, LbWaitProofs.v. *)
From RZ Require Import Base.Prelude Model.Balancer Model.Route Model.LbWait.
From RZ Require Import Proofs.BalancerProofs Proofs.RouteProofs Proofs.LbWaitProofs.

Theorem C13_idx_in_range : forall ops, inv (brun ops bal0).
Proof. exact idx_in_range. Qed.
Theorem C13_peers_nodup : forall ops, NoDup (peers (brun ops bal0)).
Proof.
  intros ops. apply (fold_left_inv bstep (fun b => NoDup (peers b))); [exact bstep_nodup|constructor].
Qed.
(* so the `next_idx >= len` reset of get_next_connection is never taken *)
Theorem C13_reset_branch_dead : forall b, inv b -> peers b <> [] ->
  get_next b = (Some (nth (next_idx b) (peers b) 0%N), mkBal (peers b) ((next_idx b + 1) mod length (peers b))).
Proof. exact get_next_no_reset. Qed.

(* no membership change: k passes hand out the peers k times each, in cyclic list order from the cursor *)
Theorem C13_rr_cycle : forall k b, inv b ->
  picks (k * length (peers b)) b = (concat (repeat (view b) k), b).
Proof. exact rr_cycle. Qed.
Theorem C13_rr_cycle_counts : forall k b p, inv b -> NoDup (peers b) -> In p (peers b) ->
  count_occ N.eq_dec (fst (picks (k * length (peers b)) b)) p = k.
Proof.
  intros k b p Hi Hnd Hin. rewrite rr_cycle by exact Hi. simpl. rewrite count_concat_repeat.
  unfold view. rewrite rot_count.
  apply (NoDup_count_occ' N.eq_dec) in Hin; [|exact Hnd]. rewrite Hin. lia.
Qed.

(* remove: the upcoming turn order is the old one with u deleted (no skip, no double turn) *)
Theorem C13_remove_keeps_order : forall u b, inv b -> NoDup (peers b) ->
  view (remove u b) = filter (fun x => negb (N.eqb x u)) (view b).
Proof. exact remove_view. Qed.
Theorem C13_remove_keeps_successor : forall u b, inv b -> NoDup (peers b) ->
  fst (get_next b) <> Some u -> fst (get_next (remove u b)) = fst (get_next b).
Proof.
  intros u b Hi Hnd Hne. rewrite !get_next_hd by (try apply remove_inv; exact Hi).
  rewrite get_next_hd in Hne by exact Hi.
  rewrite remove_view by assumption. destruct (view b) as [|q rest]; [reflexivity|]. simpl in *.
  destruct (N.eqb_spec q u) as [->|_]; [congruence|reflexivity].
Qed.
Theorem C13_remove_next_gives_successor : forall u s rest b, inv b -> NoDup (peers b) ->
  view b = u :: s :: rest -> fst (get_next (remove u b)) = Some s.
Proof.
  intros u s rest b Hi Hnd Hv. rewrite get_next_hd by (apply remove_inv; exact Hi).
  rewrite remove_view by assumption. rewrite Hv. simpl. rewrite N.eqb_refl. simpl.
  assert (Hn : NoDup (u :: s :: rest)) by (rewrite <- Hv; apply rot_nodup; exact Hnd).
  inversion Hn as [|? ? Hnin _]. destruct (N.eqb_spec s u) as [->|_]; [|reflexivity].
  exfalso. apply Hnin. now left.
Qed.
Theorem C13_remove_last_peer : forall u b, inv b -> view b = [u] -> remove u b = bal0.
Proof.
  intros u b Hi Hv. assert (Hl : length (peers b) = 1) by (rewrite <- view_length, Hv; reflexivity).
  destruct b as [l i]. simpl in *. destruct l as [|x [|y l]]; try discriminate.
  destruct Hi as [Hi|[E _]]; simpl in *; [|discriminate]. assert (i = 0) by lia. subst.
  unfold view in Hv. simpl in Hv. inversion Hv. subst. unfold remove. simpl. rewrite N.eqb_refl. reflexivity.
Qed.

(* add: joins at the end of the list, cursor untouched; a known uri is a no-op *)
Theorem C13_add_joins_end : forall u b, inv b -> ~ In u (peers b) ->
  peers (add u b) = peers b ++ [u] /\ next_idx (add u b) = next_idx b /\
  view (add u b) = skipn (next_idx b) (peers b) ++ u :: firstn (next_idx b) (peers b).
Proof. exact add_joins_end. Qed.
Theorem C13_add_dup_noop : forall u b, In u (peers b) -> add u b = b.
Proof. exact add_dup_noop. Qed.
Theorem C13_add_keeps_next : forall u b, inv b -> peers b <> [] ->
  fst (get_next (add u b)) = fst (get_next b).
Proof.
  intros u b Hi Hne. destruct (in_dec N.eq_dec u (peers b)) as [Hin|Hn].
  - rewrite add_dup_noop by exact Hin. reflexivity.
  - rewrite !get_next_hd by (try apply add_inv; exact Hi).
    destruct (add_joins_end u b Hi Hn) as (_ & _ & ->). unfold view, rot.
    destruct Hi as [Hi|[E _]]; [|congruence].
    destruct (skipn (next_idx b) (peers b)) eqn:E; [|reflexivity].
    apply (f_equal (@length N)) in E. rewrite skipn_length in E. simpl in E. lia.
Qed.

(* one routing call, for any stale count `cnt`, and any readiness and membership interference (`o`) *)
Theorem C13_route_exactly_one_sync : forall cnt o b t, one_spec (try_route_sync_with cnt o b t).
Proof. intros. rewrite try_route_sync_sweep. apply sweep_one; [intros ? ? ? H _; exact H|constructor|constructor]. Qed.
Theorem C13_route_exactly_one_msg : forall cnt o w b t, one_spec (route_message_with cnt o w b t).
Proof. exact route_message_one. Qed.
Theorem C13_route_accept_count : forall r, one_spec r ->
  accepts (r_log r) = match r_out r with Delivered _ | DeliveredSlow _ => 1 | _ => 0 end.
Proof. exact one_spec_accepts. Qed.
Theorem C13_route_log_faithful : forall cnt o w b t,
  let r1 := try_route_sync_with cnt o b t in
  let r2 := route_message_with cnt o w b t in
  faithful o t (r_log r1) /\ r_time r1 = t + length (r_log r1) /\
  faithful o t (r_log r2) /\ r_time r2 = t + length (r_log r2).
Proof.
  intros cnt o w b t. cbv zeta. rewrite try_route_sync_sweep, route_message_sweep.
  rewrite <- and_assoc. split; apply sweep_timed; simpl; try (exact I || lia).
  - intros ? ? ? H ->. split; [exact H|reflexivity].
  - apply slow_send_timed.
Qed.
Theorem C13_route_keeps_invariants : forall cnt o w b t, good b ->
  good (r_bal (try_route_sync_with cnt o b t)) /\ good (r_bal (route_message_with cnt o w b t)).
Proof.
  intros cnt o w b t. apply route_bal; [exact get_next_good|intros t'; apply apply_mops_good].
Qed.
(* the blocking send is reached only after max(count,1) full answers; try_route_sync never blocks *)
Theorem C13_slow_only_after_full_sweep : forall cnt o w b t,
  let r := route_message_with cnt o w b t in
  (all_fast (r_log r) /\ length (r_log r) <= Nat.max cnt 1) \/
  (exists pre a, r_log r = pre ++ [a] /\ at_slow a = true /\ all_fast pre /\ all_full pre /\
                 length pre = Nat.max cnt 1).
Proof.
  intros cnt o w b t. cbv zeta. rewrite route_message_sweep.
  destruct (sweep_budget o false w (slow_send o) (Nat.max cnt 1) b t [] (Forall_nil _) (Forall_nil _))
    as [H|(b' & t' & l & -> & Hs & Hf & Hl)]; [left; exact H|].
  unfold slow_send. destruct (get_next b') as [[q|] b3]; simpl in *.
  - right. eexists _, _. split; [reflexivity|]. auto.
  - left. split; [exact Hs|lia].
Qed.
Theorem C13_sync_never_blocks : forall cnt o b t,
  let r := try_route_sync_with cnt o b t in all_fast (r_log r) /\ length (r_log r) <= cnt.
Proof.
  intros cnt o b t. cbv zeta. rewrite try_route_sync_sweep.
  destruct (sweep_budget o true false sync_ret cnt b t [] (Forall_nil _) (Forall_nil _))
    as [H|(b' & t' & l & -> & Hs & _ & Hl)]; [exact H|].
  split; [exact Hs|simpl in *; lia].
Qed.

Theorem C13_sweep_stops_at_first_nonfull : forall o, (forall t, o_env o t = []) ->
  forall w b t pre q post,
  inv b -> view b = pre ++ q :: post -> all_full_at o t pre -> o_fast o (t + length pre) q <> Full ->
  let ans := o_fast o (t + length pre) q in
  let log := full_atts t pre ++ [mkAtt (t + length pre) q false ans] in
  let b' := snd (picks (S (length pre)) b) in
  inv b' /\ peers b' = peers b /\ view b' = post ++ pre ++ [q] /\
  try_route_sync o b t = mkRes (fast_outcome true ans q) log b' (S (t + length pre)) /\
  route_message o w b t = mkRes (fast_outcome false ans q) log b' (S (t + length pre)).
Proof. exact sweep_stops_at_first_nonfull. Qed.
Theorem C13_route_skips_full : forall o, (forall t, o_env o t = []) ->
  forall w b t pre q post,
  inv b -> view b = pre ++ q :: post -> all_full_at o t pre -> o_fast o (t + length pre) q = Accept ->
  r_out (try_route_sync o b t) = Delivered q /\ r_out (route_message o w b t) = Delivered q /\
  all_fast (r_log (route_message o w b t)).
Proof. exact route_skips_full. Qed.
Theorem C13_sweep_all_full : forall o, (forall t, o_env o t = []) ->
  forall w b t v,
  inv b -> view b = v -> v <> [] -> all_full_at o t v ->
  try_route_sync o b t = mkRes Returned (full_atts t v) b (t + length v) /\
  exists q rest b', v = q :: rest /\ inv b' /\ peers b' = peers b /\ view b' = rest ++ [q] /\
    let ans := o_slow o (t + length v) q in
    route_message o w b t =
    mkRes (match ans with Accept => DeliveredSlow q | Full => Returned | Closed => Dropped q end)
          (full_atts t v ++ [mkAtt (t + length v) q true ans]) b' (S (S (t + length v - 1))).
Proof.
  intros o Henv w b t v Hi <- Hne Hf. rewrite view_length. fold (count b). unfold try_route_sync, route_message.
  rewrite try_route_sync_sweep, route_message_sweep.
  assert (Hc : count b <> 0) by (unfold count; rewrite <- view_length; destruct (view b); [congruence|discriminate]).
  replace (Nat.max (count b) 1) with (count b) by lia.
  pose proof (fun sync wait fin => sweep_pass o Henv sync wait fin 0 b t Hi Hf) as Hp. rewrite Nat.add_0_r in Hp.
  rewrite !Hp. split; [reflexivity|].
  destruct (view b) as [|q rest] eqn:Hv; [congruence|]. exists q, rest.
  destruct (get_next_view b q rest Hi Hv) as (b' & Hg & Hp' & Hi' & Hv' & _).
  exists b'. repeat split; auto. simpl. unfold slow_send. rewrite Hg, Henv. f_equal. lia.
Qed.

Theorem C13_route_no_starvation : forall o, (forall t, o_env o t = []) ->
  forall p, (forall t, o_fast o t p = Accept) ->
  forall c1 win c2 b t, inv b -> In p (peers b) -> length win = length (peers b) ->
  exists r, In r (firstn (length win) (skipn (length c1) (run_calls o (c1 ++ win ++ c2) b t))) /\
            r_out r = Delivered p.
Proof. exact route_no_starvation. Qed.
Theorem C13_starvation_bound_tight :
  exists o b cs, (forall t, o_env o t = []) /\ (forall t q, o_fast o t q = Accept) /\ inv b /\ In 2%N (peers b) /\
    S (length cs) = length (peers b) /\
    forall r, In r (run_calls o cs b 0) -> r_out r <> Delivered 2%N.
Proof.
  exists (mkOracle (fun _ _ => Accept) (fun _ _ => Accept) (fun _ => [])), (mkBal [0; 1; 2]%N 0), [CSync; CMsg false].
  repeat split; auto.
  - left. simpl. lia.
  - simpl. tauto.
  - intros r [<-|[<-|[]]]; vm_compute; discriminate.
Qed.
(* when every peer is full the sender waits on ONE peer, whatever the others do meanwhile *)
Theorem C13_route_waits_on_any_refuted :
  exists o b, (forall t, o_env o t = []) /\ inv b /\ peers b = [0; 1]%N /\
    (forall t, 2 <= t -> o_fast o t 1%N = Accept /\ o_slow o t 1%N = Accept) /\
    r_out (route_message o false b 0) = Dropped 0%N.
Proof. exact route_waits_on_any_refuted. Qed.

(* DEALER (send_logical_message over route_message), for every behaviour of the peers: Ok = exactly
   one peer has the message; queued = nobody has it and it is queued intact; error = nobody has it.
   (Before the fix: commit an error other than "full" queued an EMPTY batch and answered Ok.) *)
Theorem C13_dealer_send_sound : forall o b t,
  let '(r, a) := dealer_send o b t in
  match a with
  | AnsOk => accepts (r_log r) = 1
  | AnsQueued => accepts (r_log r) = 0 /\ r_out r = Returned
  | AnsErr => accepts (r_log r) = 0
  end.
Proof.
  intros o b t. unfold dealer_send, route_message.
  pose proof (one_spec_accepts _ (route_message_one (count b) o false b t)) as Ha.
  pose proof (sweep_false_outcomes o (Nat.max (count b) 1) b t []) as Ho.
  rewrite <- route_message_sweep in Ho.
  destruct (r_out (route_message_with (count b) o false b t)); try tauto; auto.
Qed.

(* wait_for_connection against add_connection / remove_connection / deactivate: `w0 true` is the code after
   the fix: commit (future created before the checks); `w0 false` is the order at the pinned commit, kept as
   the refuted witness. *)
Theorem C13_wait_lost_wakeup_refuted :
  exists xs, lost (srun xs (w0 false)) = true /\ wstep (srun xs (w0 false)) = None.
Proof. exists [SW; SW; SE (EAdd 1%N); SW]. split; reflexivity. Qed.
Theorem C13_wait_lost_stays_lost : forall s e, lost s = true ->
  match e with EAdd u => In u (peers (w_bal s)) | ERemove _ => False | EDeact => False end ->
  lost (estep s e) = true.
Proof.
  unfold lost. intros [b c d f pc] e. cbn [w_pc w_calls w_bal]. destruct pc; try discriminate.
  intros H He. destruct e as [u|u|]; try tauto. cbn [estep w_pc w_calls w_bal].
  rewrite add_dup_noop by exact He. unfold add_notifies. apply has_true in He. rewrite He. exact H.
Qed.
Theorem C13_wait_safe_outside : forall xs, gap_free (w0 false) xs -> lost (srun xs (w0 false)) = false.
Proof. intros xs H. apply J_not_lost, J_srun; [apply J_init|exact H]. Qed.
Theorem C13_wait_fixed_safe : forall xs, lost (srun xs (w0 true)) = false.
Proof. exact wait_fixed_safe. Qed.
(* ... with any number of tasks waiting at once (sends from several tasks on a peerless socket): none of them is left
   asleep next to a connected peer, for every interleaving (notify_waiters wakes every existing Notified future) *)
Theorem C13_wait_all_waiters_safe : forall n xs i, (i < n)%nat -> mlost (mrun xs (mw0 n)) i = false.
Proof.
  intros n xs i Hi. unfold mlost.
  destruct (mproj_run xs (mw0 n) i) as [H _]; [cbn; rewrite repeat_length; exact Hi|].
  rewrite H. replace (mproj (mw0 n) i) with (w0 true); [apply wait_fixed_safe|].
  unfold mproj, mw0, w0. cbn. rewrite (nth_indep _ _ PIdle), nth_repeat by (rewrite repeat_length; exact Hi). reflexivity.
Qed.
(* a parked waiter that has not lost its wake-up proceeds as soon as a peer is there: it is
   runnable, and its next two steps (wake, check) return Ok (Err if deactivated meanwhile) *)
Theorem C13_wait_proceeds : forall s seen, J s -> w_fixed s = false -> w_pc s = PAwait seen ->
  peers (w_bal s) <> [] -> w_pc (srun [SW; SW] s) = PDone (negb (w_deact s)).
Proof.
  intros [b c d f pc] seen. unfold J. cbn [w_pc w_fixed w_calls w_deact w_bal].
  intros [_ HJ] -> -> Hne. destruct HJ as [H1 H2].
  cbv beta iota zeta delta [srun fold_left sstep wstep w_pc w_calls w_fixed set_pc w_bal w_deact].
  destruct (Nat.eqb_spec c seen) as [E|_]; [destruct (H2 E); congruence|].
  cbv beta iota zeta delta [wstep w_pc w_calls w_fixed set_pc w_bal w_deact check].
  destruct d; [reflexivity|]. destruct (peers b); [congruence|reflexivity].
Qed.

(* non-vacuity: a reachable balancer with three peers; peer 3 is full, so a message goes to the
   next peer of the rotation; a mid-sweep disconnect/connect does not duplicate it *)
Example C13_example :
  let b := brun [BAdd 1; BAdd 2; BAdd 3; BAdd 2; BNext; BNext]%N bal0 in
  let o := mkOracle (fun _ p => if N.eqb p 3 then Full else Accept) (fun _ _ => Closed)
                    (fun t => if t =? 0 then [MRemove 1; MAdd 4]%N else []) in
  inv b /\ view b = [3; 1; 2]%N /\
  r_out (route_message (no_env o) false b 0) = Delivered 1%N /\
  r_out (route_message o false b 0) = Delivered 2%N /\
  accepts (r_log (route_message o false b 0)) = 1 /\
  view (r_bal (route_message o false b 0)) = [3; 4; 2]%N.
Proof. vm_compute. split; [left; lia|]. repeat split; reflexivity. Qed.
