(* C12 - a SUB socket delivers exactly what its current subscriptions match.
   The work is done in Proofs/TrieProofs.v and Proofs/PubRouteProofs.v.  Model: Model/Trie.v
   (SubscriptionTrie of trie.rs and the FilteredAnonymous filter of ready_pipe_queue.rs).
   `count_of t s` is the number of active subscriptions of exactly the topic s. *)
From RZ Require Import Base.Prelude Model.Trie Proofs.TrieProofs Model.PubRoute Proofs.PubRouteProofs.
Local Open Scope N_scope.

(* subscribe adds exactly one occurrence of s to the multiset (usize wrap-around excluded by the premise;
   without it the count wraps: C12_subscribe_wraps) *)
Theorem C12_subscribe_abs : forall t s s', count_of t s + 1 < U64 ->
  count_of (subscribe t s) s' = count_of t s' + (if bytes_eqb s s' then 1 else 0).
Proof. exact subscribe_abs. Qed.
Theorem C12_subscribe_wraps : forall t s, count_of (subscribe t s) s = wrap_add1 (count_of t s).
Proof. intros t s. rewrite count_of_subscribe, bytes_eqb_refl. reflexivity. Qed.
(* ... so the 2^64-th subscription of one topic deactivates it (unreachable in practice; everywhere
   else the property holds: C12_subscribe_abs, C12_run_refines) *)
Theorem C12_subscribe_overflow_refuted :
  exists t s, 0 < count_of t s /\ count_of (subscribe t s) s = 0 /\ matches (subscribe t s) s = false.
Proof. exists (Node (U64 - 1) []), []. split; [reflexivity | split; reflexivity]. Qed.

(* unsubscribe removes one occurrence if there is one and nothing otherwise (N.sub truncates at 0);
   it answers true exactly when the last occurrence went away *)
Theorem C12_unsubscribe_abs : forall t s s',
  count_of (fst (unsubscribe t s)) s' = count_of t s' - (if bytes_eqb s s' then 1 else 0)
  /\ snd (unsubscribe t s) = (count_of t s =? 1).
Proof. exact unsubscribe_abs. Qed.
(* unsubscribing something that is not subscribed changes nothing at all *)
Theorem C12_unsubscribe_absent_is_identity : forall t s, count_of t s = 0 -> unsubscribe t s = (t, false).
Proof. exact unsubscribe_absent. Qed.

(* matches = "some active subscription is a byte-prefix of the topic" *)
Theorem C12_matches_spec : forall t m,
  matches t m = true <-> exists s, 0 < count_of t s /\ prefix s m.
Proof. exact matches_spec. Qed.
Theorem C12_empty_subscription_matches_everything : forall t m, 0 < count_of t [] -> matches t m = true.
Proof. intros t m H. apply matches_spec. exists []. split; [exact H | exists m; reflexivity]. Qed.
Theorem C12_no_subscription_matches_nothing : forall m, matches empty m = false.
Proof. intros [|b r]; reflexivity. Qed.

(* all histories: the multiplicity of every topic is its +1/-1 balance (never below 0) *)
Theorem C12_history_balance : forall ops t s,
  count_of t s + N.of_nat (length ops) < U64 ->
  count_of (fst (run t ops)) s = fold_left (bal s) ops (count_of t s).
Proof. exact count_of_run. Qed.
(* a topic subscribed n times stays active until unsubscribed n times *)
Theorem C12_n_subs_need_n_unsubs : forall t s n k,
  count_of t s + N.of_nat n + N.of_nat k < U64 ->
  let t' := fst (run t (repeat (Sub s) n ++ repeat (Unsub s) k)) in
  count_of t' s = count_of t s + N.of_nat n - N.of_nat k
  /\ ((k < n)%nat -> forall m, prefix s m -> matches t' m = true).
Proof. exact n_subs_need_n_unsubs. Qed.

(* refinement: every history of subscribe / unsubscribe / matches / get_all_topics on the trie gives,
   op by op, the results of the multiset reference (topic lists compared as duplicate-free sets) *)
Theorem C12_run_refines : forall ops,
  N.of_nat (length ops) < U64 ->
  refines (fst (run empty ops)) (fst (spec_run [] ops))
  /\ Forall2 ret_equiv (snd (run empty ops)) (snd (spec_run [] ops)).
Proof. exact run_refines_from_empty. Qed.
Theorem C12_get_all_topics_spec : forall t, wf t ->
  NoDup (get_all_topics t) /\ forall s, In s (get_all_topics t) <-> 0 < count_of t s.
Proof. exact get_all_topics_spec. Qed.

(* the filter looks at the first frame only *)
Theorem C12_filter_first_frame_only : forall t f r1 r2, passes t (f :: r1) = passes t (f :: r2).
Proof. reflexivity. Qed.
(* single send, sync send and batched send forward the same messages, in order *)
Theorem C12_filter_paths_agree : forall t cap items,
  (length (filter (passes t) items) <= cap)%nat ->
  try_send_batch t true cap items = (filter (passes t) items, [], frames items)
  /\ flat_map (fun m => forwarded1 (send_single t true m)) items = filter (passes t) items
  /\ flat_map (fun m => forwarded1 (try_send_sync t true true m)) items = filter (passes t) items.
Proof. exact filter_paths_agree. Qed.
(* back-pressure in the batched path: a prefix of the deque is consumed, its filter forwarded in
   order, the rest left as it was *)
Theorem C12_batch_backpressure_keeps_order : forall t cap items s r n,
  try_send_batch t true cap items = (s, r, n) ->
  exists consumed, items = consumed ++ r /\ s = filter (passes t) consumed /\ n = frames consumed
    /\ (length s <= cap)%nat.
Proof.
  intros t cap items s r n H. destruct (batch_loop_spec t items cap) as (cs & r' & E & H1 & H2 & _).
  rewrite try_send_batch_alive, E in H. injection H as <- <- <-. exists cs. auto.
Qed.

(* after any history, the batched path forwards exactly the items whose first frame has a currently subscribed
   topic as a prefix, in order *)
Theorem C12_sub_forwards_iff_active_prefix : forall ops items cap,
  N.of_nat (length ops) < U64 ->
  let t := fst (run empty ops) in
  let subs := fst (spec_run [] ops) in
  (length (filter (passes t) items) <= cap)%nat ->
  fst (fst (try_send_batch t true cap items))
    = filter (fun m => spec_matches subs (topic_of m)) items
  /\ forall m, In m (fst (fst (try_send_batch t true cap items))) <->
               In m items /\ exists s, In s subs /\ prefix s (topic_of m).
Proof.
  intros ops items cap Hb t subs Hc. destruct (run_refines_from_empty ops Hb) as [R _].
  destruct (filter_paths_agree t cap items Hc) as [-> _]. cbn [fst].
  assert (filter (passes t) items = filter (fun m => spec_matches subs (topic_of m)) items) as E.
  { apply filter_ext. intros m. apply refines_matches, R. }
  split; [exact E|]. intros m. rewrite E.
  etransitivity; [apply filter_In | apply and_iff_compat_l, spec_matches_spec].
Qed.

(* ---- the publisher side: Distributor::send_to_all over the session interface (Model/PubRoute.v) ---- *)

(* each peer's outcome is that of its own send: a peer with room always gets the message and a slow,
   stalled, closed or stale peer changes no other peer's outcome *)
Theorem C12_pub_outcomes_independent : forall d t now ps,
  map fst (fst (send_to_all d t now ps)) = map (fun p => fst (peer_send d t p)) ps.
Proof. exact send_to_all_outcomes. Qed.
(* ... but the peers are served in sequence: publish time = sum of the waits on the full peers *)
Theorem C12_pub_total_time : forall d t now ps,
  snd (send_to_all d t now ps) = fold_left (fun acc p => acc + snd (peer_send d t p)) ps now.
Proof. exact send_to_all_total. Qed.
(* "never blocks the publisher or delays delivery to other subscribers" is FALSE for the code as it
   is with SNDTIMEO unset: a stalled subscriber in front of a healthy one costs the full 30 s *)
Theorem C12_pub_never_blocks_refuted :
  exists ps, send_to_all 30000 TNone 0 ps = ([(Dropped, 30000); (Sent, 30000)], 30000)
             /\ nth 1 ps Closed = Room.
Proof. exact pub_never_blocks_refuted. Qed.
(* it holds outside that class: SNDTIMEO = 0, or no full peer *)
Theorem C12_pub_zero_timeout_never_blocks : forall d now ps, snd (send_to_all d TZero now ps) = now.
Proof. exact zero_timeout_never_blocks. Qed.
Theorem C12_pub_all_room_no_delay : forall d t now ps,
  Forall (fun p => p = Room) ps -> send_to_all d t now ps = (map (fun _ => (Sent, now)) ps, now).
Proof. exact all_room_no_delay. Qed.

(* non-vacuity: a concrete history with nested, repeated, empty and binary topics *)
Example C12_example :
  let ops := [Sub [1; 2]; Sub [1; 2]; Sub [1; 2; 3]; Unsub [1; 2]; Match [1; 2; 9]; Unsub [1; 2];
              Match [1; 2; 9]; Match [1; 2; 3; 4]; Unsub [7]; Sub []; Match [255]; Topics] in
  snd (run empty ops) =
    [RNone; RNone; RNone; RBool false; RBool true; RBool true; RBool false; RBool true; RBool false;
     RNone; RBool true; RTopics [[]; [1; 2; 3]]]
  /\ N.of_nat (length ops) < U64
  /\ try_send_batch (fst (run empty (firstn 8 ops))) true 1
       [[Some [9]; Some [1; 2; 3]]; [Some [1; 2; 3]; None]; [None]; [Some [1; 2; 3; 4]]]
     = ([[Some [1; 2; 3]; None]], [[Some [1; 2; 3; 4]]], 5%nat).
Proof. vm_compute. repeat split; reflexivity. Qed.
