(* C03 - ZMTP framing round-trips and is independent of how the stream is cut. *)
From RZ Require Import Base.Prelude Base.Stepper Model.Codec Proofs.CodecProofs.
Local Open Scope N_scope.

(* every encoder entry point emits exactly the RFC 23/37 frame for the frame it puts on the wire *)
Theorem C03_enc_codec_is_rfc : forall f, fits f -> enc_codec f = rfc_frame f.
Proof. exact enc_codec_rfc. Qed.
Theorem C03_enc_header_only_is_rfc : forall f, fits f -> enc_header_only f ++ f_payload f = rfc_frame f.
Proof. intros f. change (enc_header_only f ++ f_payload f) with (enc_codec f). apply enc_codec_rfc. Qed.
Theorem C03_enc_split_is_rfc : forall f, fits f ->
  fst (enc_split f) ++ snd (enc_split f) = rfc_frame (nocmd f).
Proof. intros f Hf. rewrite <- enc_codec_rfc by exact Hf. reflexivity. Qed.
Theorem C03_enc_contiguous_is_rfc : forall bs, Forall fits (concat bs) ->
  enc_contiguous bs = concat (map rfc_frame (concat bs)).
Proof. exact enc_contiguous_rfc. Qed.
Theorem C03_enc_vectored_is_rfc : forall bs, Forall fits (concat bs) ->
  concat (enc_vectored bs) = concat (map (fun f => rfc_frame (nocmd f)) (concat bs)).
Proof. exact enc_vectored_rfc. Qed.
Theorem C03_enc_batch_vectored_is_rfc : forall bs, Forall fits (concat bs) ->
  (forall f, In f (concat bs) -> f_cmd f = false) ->
  concat (enc_batch_vectored bs) = concat (map rfc_frame (concat bs)).
Proof. exact enc_batch_vectored_rfc. Qed.

Theorem C03_header_rule_short : forall f, len (f_payload f) <= 255 ->
  enc_header_only f = [rfc_flags (f_more f) (f_cmd f) false; len (f_payload f)].
Proof.
  intros f H. unfold enc_header_only, enc_header.
  destruct (len (f_payload f) <=? 255) eqn:E; [|lia]. rewrite flags_rfc. reflexivity.
Qed.
Theorem C03_header_rule_long : forall f, 255 < len (f_payload f) -> fits f ->
  exists l8, enc_header_only f = rfc_flags (f_more f) (f_cmd f) true :: l8 /\ length l8 = 8%nat
             /\ be_val l8 = len (f_payload f) /\ wf_bytes l8 = true.
Proof.
  intros f H Hf. unfold enc_header_only, enc_header, fits in *.
  destruct (len (f_payload f) <=? 255) eqn:E; [lia|].
  exists (be_bytes 8 (len (f_payload f) mod U64)). rewrite flags_rfc, be_bytes_length, be_bytes_wf, be_roundtrip.
  change (256 ^ N.of_nat 8) with U64. rewrite !N.mod_small by exact Hf. auto.
Qed.

(* round trip through any segmentation, live decoder (decode_from_buffer) *)
Theorem C03_roundtrip_stream : forall m fs cs,
  Forall (admitted m) fs -> concat cs = concat (map enc_codec fs) ->
  run_buffer m cs = (false, [], map Some fs).
Proof.
  intros m fs cs Hf Hc. unfold run_buffer.
  rewrite (sk_feed_quiescent_start (buffer_ok m)) by reflexivity. cbn [app]. rewrite Hc.
  apply (sk_Run_pump (buffer_ok m)).
  rewrite <- (app_nil_r (concat _)), <- (app_nil_r (map Some fs)).
  apply run_buffer_frames; [exact Hf|]. apply RunNeed. reflexivity.
Qed.
(* tokio codec, any primed prefix *)
Theorem C03_roundtrip_tokio : forall pre fs c cs,
  Forall admitted_tokio fs -> pre ++ concat (c :: cs) = concat (map enc_codec fs) ->
  run_tokio pre (c :: cs) = (TReadHeader, [], map Some fs).
Proof.
  intros pre fs c cs Hf Hc. unfold run_tokio. rewrite (sk_feed_cons tokio_ok). unfold bytes. rewrite Hc.
  apply (sk_Run_pump tokio_ok).
  rewrite <- (app_nil_r (concat _)), <- (app_nil_r (map Some fs)).
  apply run_tokio_frames; [exact Hf|]. apply RunNeed. reflexivity.
Qed.

(* cut independence for EVERY byte string, valid or not *)
Theorem C03_cut_independence : forall m cs1 cs2,
  concat cs1 = concat cs2 -> run_buffer m cs1 = run_buffer m cs2.
Proof. intros m cs1 cs2 Hc. apply (sk_feed_chunk_independent (buffer_ok m)); [reflexivity | exact Hc]. Qed.
Theorem C03_cut_independence_tokio : forall pre c1 cs1 c2 cs2,
  concat (c1 :: cs1) = concat (c2 :: cs2) -> run_tokio pre (c1 :: cs1) = run_tokio pre (c2 :: cs2).
Proof.
  intros pre c1 cs1 c2 cs2 Hc. unfold run_tokio. rewrite !(sk_feed_cons tokio_ok). unfold bytes. rewrite Hc.
  reflexivity.
Qed.
(* the decoder driver never runs out of fuel / always ends quiescent *)
Theorem C03_decoder_total : forall m cs,
  let '(st, r, _) := run_buffer m cs in buffer_step m st r = Need.
Proof.
  intros m cs. unfold run_buffer. rewrite (sk_feed_quiescent_start (buffer_ok m)) by reflexivity.
  apply (sk_pump_quiescent (buffer_ok m)).
Qed.

(* slice / Bytes / peek decoders agree with the live one wherever header+size fits in usize *)
Theorem C03_decoders_agree : forall chk m buf, no_overflow buf -> dec_slice chk m buf = dec_buffer m buf.
Proof. exact dec_slice_agrees. Qed.
Theorem C03_peek_agrees : forall chk m buf f k, no_overflow buf ->
  dec_buffer m buf = DFrame f k -> peek_len chk m buf = PLen (N.of_nat k).
Proof. exact peek_len_agrees. Qed.
Theorem C03_slice_overflow_characterised : forall chk m buf fl t,
  buf = fl :: t -> (hdr_len fl <= length buf)%nat -> len buf < U64 ->
  U64 <= N.of_nat (hdr_len fl) + raw_size fl buf -> over_limit m (raw_size fl buf) = false ->
  dec_slice chk m buf = (if chk then DPanic else
     if len buf <? (N.of_nat (hdr_len fl) + raw_size fl buf) mod U64 then DNeed else DPanic)
  /\ dec_buffer m buf = DNeed.
Proof. exact dec_slice_overflow. Qed.

(* non-vacuity: concrete frames meet the hypotheses and the functions compute *)
Example C03_example :
  let f1 := {| f_more := true; f_cmd := false; f_payload := fill 300 7 |} in
  let f2 := {| f_more := false; f_cmd := true; f_payload := [1; 2; 3] |} in
  admitted 1000 f1 /\ admitted 1000 f2 /\ admitted_tokio f1 /\
  run_buffer 1000 [firstn 5 (enc_codec f1); skipn 5 (enc_codec f1) ++ enc_codec f2] = (false, [], [Some f1; Some f2]).
Proof. vm_compute. repeat split; intros; discriminate. Qed.
