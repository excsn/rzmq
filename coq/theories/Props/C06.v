(* C06 - a configured security mechanism cannot be bypassed or downgraded. *)
From RZ Require Import Base.Prelude Base.Stepper Model.Codec Proofs.CodecProofs Model.Engine
  Proofs.EngineProofs Model.Actor Proofs.ActorProofs Proofs.EngineSafety Proofs.EngineSecurity.
Local Open Scope N_scope.

(* For every configuration with a mechanism enabled (PLAIN, CURVE or NOISE_XX; either role; any
   ALLOW_ZMTP2; any socket type) and EVERY input history (arbitrary byte chunks, ticks,
   application sends, close): if the engine ever reports HandshakeComplete or delivers a message,
   then it negotiated ZMTP/3, and its mechanism is a non-NULL mechanism that completed.
   (CURVE/NOISE are opaque: they never complete for a peer without keys - Engine.v MOpaque.) *)
Theorem C06_no_bypass : forall cfg is t,
  c_sec_enabled cfg = true ->
  any_emits (snd (e_run cfg (e_new t) is)) = true ->
  secure_done (g_st (fst (e_run cfg (e_new t) is))).
Proof. exact no_bypass. Qed.

(* PLAIN listener: the mechanism becomes "authenticated" only by a step that decodes a frame whose
   body is HELLO(u, p) with u, p equal to the configured credentials (both must be set) ... *)
Theorem C06_plain_auth_only_by_valid_hello : forall cfg st b st' n o,
  estep cfg st b = Step st' n o -> plain_authed st = false -> plain_authed st' = true ->
  exists f k, dec_buffer (c_maxsz cfg) b = DFrame f k /\ valid_hello cfg (f_payload f).
Proof. exact plain_auth_only_by_valid_hello. Qed.
(* ... and a completed PLAIN server mechanism is an authenticated one *)
Theorem C06_plain_done_is_authed : forall st,
  secure_done st -> (exists ps, e_mech st = MPlain true ps) -> plain_authed st = true.
Proof.
  intros st (_ & Hc & _) [ps Hm]. unfold plain_authed. rewrite Hm in *. destruct ps; cbn in Hc; congruence.
Qed.

(* per micro-step form of the gating invariant behind C06_no_bypass (exposed for audit) *)
Theorem C06_step_invariant : forall cfg st b st' n o,
  c_sec_enabled cfg = true -> sec_inv st -> estep cfg st b = Step st' n o ->
  sec_inv st' /\ (emits o = true -> secure_done st').
Proof.
  intros cfg st b st' n o Hs Hi H. apply estep_etrans in H. pose proof (etrans_sec_inv _ _ _ _ _ Hs Hi H) as Hi'.
  split; [exact Hi'|]. intros He. unfold sec_inv in Hi'. rewrite (etrans_emits _ _ _ _ _ H He) in Hi'. exact Hi'.
Qed.

Example C06_example :
  let cfg := {| c_server := true; c_stype := s_PULL; c_rid := None; c_sec_enabled := true; c_allow_v2 := true;
                c_use_plain := true; c_use_curve := false; c_use_noise := false;
                c_plain_user := Some [97]; c_plain_pass := Some [98];
                c_opaque_ok := false; c_hb_ivl := None; c_hb_timeout := None; c_cork := false; c_zc := false;
                c_maxsz := (-1)%Z |} in
  let good := (255 :: repeat 0 8 ++ [127; 3; 0] ++ mech_field s_PLAIN ++ [0] ++ repeat 0 31) ++
              enc_codec (cmd_frame ((5 :: s_HELLO) ++ hello_body [97] [98])) ++
              enc_codec (cmd_frame ((5 :: s_READY) ++ enc_prop s_SocketType s_PUSH)) ++
              enc_codec (data_frame false [1]) in
  let v2 := (255 :: repeat 0 8 ++ [127; 1; 8]) ++ enc_codec (data_frame false []) ++ enc_codec (data_frame false [1]) in
  any_emits (snd (e_run cfg (e_new 0) [INet good 0])) = true /\
  any_emits (snd (e_run cfg (e_new 0) [INet v2 0])) = false.
Proof. vm_compute. split; reflexivity. Qed.

(* ---- from set_option to the engine's `security_enabled` (Model/Options.v, Model/EngineCfg.v; both regenerated from
   core/src/socket/options.rs on every run and proved equal, Proofs/OptionsCheck.v) ---- *)
From RZ Require Import Model.Options Model.EngineCfg Proofs.OptionsProofs Proofs.EngineCfgProofs.
(* setting ANY of PLAIN_SERVER / PLAIN_USERNAME / PLAIN_PASSWORD / CURVE_SERVER / CURVE_SECRET_KEY / CURVE_SERVER_KEY
   successfully makes the derived engine configuration security_enabled ... *)
Theorem C06_mech_option_enables_security : forall (o : opts) (id : Z) (b : bytes) (o' : opts), In id mech_ids -> apply_opt o id b = inl o' -> security_enabled o' = true.
Proof. intros o id b o' Hin H. exact (pc_enabled_security o' (mech_option_sets_pc o id b o' Hin H)). Qed.
(* ... and NO later history of set_option calls - any ids, any byte strings, accepted or refused - switches it off again *)
Theorem C06_configured_mechanism_stays : forall (o : opts) (pre : list (Z * bytes)) (id : Z) (b : bytes) (o1 : opts) (post : list (Z * bytes)), In id mech_ids -> apply_opt (fst (apply_all o pre)) id b = inl o1 -> security_enabled (fst (apply_all o1 post)) = true.
Proof. intros o pre id b o1 post Hin H. exact (pc_enabled_security _ (pc_enabled_history post o1 (mech_option_sets_pc _ id b o1 Hin H))). Qed.
(* NOISE_XX is switched by its own flag only: 1 = on, any other 4-byte value = off, nothing else changes *)
Theorem C06_noise_flag_semantics : forall (o : opts) (b : bytes), match apply_opt o NOISE_XX_ENABLED b with | inl o' => exists v, i32_of b = Some v /\ o' F_noise_xx_options_enabled = VB (v =? 1)%Z /\ (forall g, g <> F_noise_xx_options_enabled -> o' g = o g) | inr e => e = EVal 0 /\ i32_of b = None end.
Proof.
  intros o b. rewrite (apply_opt_rule o NOISE_XX_ENABLED b _ eq_refl). cbn [R r_pk r_field r_also fold_left run_pk].
  unfold with_i32. destruct (i32_of b) as [v|]; [|auto]. exists v. rewrite oset_same. repeat split.
  intros g Hg. now apply oset_other.
Qed.
(* composed with C06_no_bypass: an engine built from options in which a PLAIN / CURVE option was ever set emits nothing
   before its mechanism is done, for every input history *)
Theorem C06_configured_options_no_bypass : forall (o : opts) (pre : list (Z * bytes)) (id : Z) (b : bytes) (o1 : opts) (post : list (Z * bytes)) cfg is t, In id mech_ids -> apply_opt (fst (apply_all o pre)) id b = inl o1 -> c_sec_enabled cfg = security_enabled (fst (apply_all o1 post)) -> any_emits (snd (e_run cfg (e_new t) is)) = true -> secure_done (g_st (fst (e_run cfg (e_new t) is))).
Proof. intros o pre id b o1 post cfg is t Hin Ha Hc. apply C06_no_bypass. rewrite Hc. exact (C06_configured_mechanism_stays o pre id b o1 post Hin Ha). Qed.
Theorem C06_defaults_not_secured : security_enabled default_opts = false /\ cfg_allow_zmtp2 default_opts = true.
Proof. split; reflexivity. Qed.
Example C06_options_nonvacuous :
  match apply_opt default_opts PLAIN_USERNAME [97; 100; 109; 105; 110] with
  | inl o1 => security_enabled o1 = true /\
              security_enabled (fst (apply_all o1 [(NOISE_XX_ENABLED, [0; 0; 0; 0]); (PLAIN_SERVER, [0; 0; 0; 0]); (ALLOW_ZMTP2, [1; 0; 0; 0]); (9999%Z, [])])) = true
  | inr _ => False
  end.
Proof. vm_compute. split; reflexivity. Qed.
