(* C08 - a receiver never sleeps while a message is queued for it (no lost wake-ups).

   Model/Rpq.v is the interleaving model of ready_pipe_queue.rs at the granularity of its
   individual atomic actions (the cfg(rzmq_verif) schedule points sit between the same actions and
   the correspondence run compares the real queue with the model event by event).  Every theorem
   below is about EVERY program set (one producer per pipe over send / try_send / try_send_batch,
   any number of consumers over pop / try_pop), EVERY per-pipe capacity, and EVERY schedule of
   thread steps, cancellations of pending futures and deregistrations (`reach`), under the one
   documented requirement of ReadyPipeQueue::new: ready capacity >= number of pipes.

   Model/RpqWake.v adds which parked consumer the ready channel actually wakes (fibre wakes one
   waiter per push and does not pass a wake-up on when a notified recv future is dropped):
   C08_wake_cancel_refuted is the resulting genuine lost wake-up, C08_wake_no_lost_wakeup the
   guarantee outside that class.  Model/WgWait.v is WaitGroup::wait against done() (the code after
   its fix: commit; the pinned-commit order is kept as a refuted legacy witness). *)
From RZ Require Import Base.Prelude Model.Rpq Model.RpqWake Model.WgWait.
From RZ Require Import Proofs.RpqProofs Proofs.RpqWakeProofs Proofs.WgWaitProofs.

Theorem C08_rpq_inv_reachable : forall c pp cp es, np c <= rcap c -> RpqInv c (run c es (init pp cp)).
Proof. exact rpq_inv_reachable. Qed.

(* a consumer that took a ready entry always finds an item in that pipe's channel *)
Theorem C08_rpq_no_stale_pop : forall c s i b q, np c <= rcap c -> reach c s -> i < nc c ->
  cons s i = CRecv b q -> exists x l, chan s q = x :: l.
Proof. exact rpq_no_stale_pop. Qed.

(* the counters never underflow (debug_assert!(prev > 0) cannot fire; no usize wrap) and
   reserved >= queued >= 0 at every instant *)
Theorem C08_rpq_no_underflow : forall c s, np c <= rcap c -> reach c s ->
  (forall p, (0 <= queued s p <= reserved s p)%Z) /\
  (forall i b q x, i < nc c -> cons s i = CDecQ b q x -> (1 <= queued s q)%Z) /\
  (forall i b q x prev, i < nc c -> cons s i = CDecR b q x prev -> (1 <= reserved s q)%Z).
Proof. exact rpq_no_underflow. Qed.

(* per pipe: (items taken by the consumers, in the order taken) ++ (channel content) = items
   written, in the order written - nothing lost, nothing duplicated, order kept *)
Theorem C08_rpq_exactly_once_in_order : forall c s p, np c <= rcap c -> reach c s ->
  pushed s p = taken_of p s ++ chan s p /\ prefix (taken_of p s) (pushed s p) /\
  (NoDup (pushed s p) -> NoDup (taken_of p s)).
Proof. exact rpq_exactly_once_in_order. Qed.

(* whoever owes the ready list an entry finds room: the arming sends never block or spin, their
   await points are never pending (hence never cancellable), try_pop's single attempt never fails *)
Theorem C08_rpq_arm_never_blocks : forall c s, np c <= rcap c -> reach c s ->
  (forall p, prod s p <> SArm true) /\ (forall i b q x, cons s i <> CArm b q x true) /\
  (forall p, p < np c -> p_arm (prod s p) = 1%Z -> rroom c s = true) /\
  (forall i b q x k, i < nc c -> cons s i = CArm b q x k -> rroom c s = true).
Proof.
  intros c s Hcap Hr. pose proof (reach_inv c s Hcap Hr) as HI. repeat split.
  - exact (i_nopark_p _ _ HI).
  - exact (i_nopark_c _ _ HI).
  - intros p Hp. exact (parm_room c s p HI Hcap Hp).
  - intros i b q x k Hi. exact (carm_room c s i b q x k HI Hcap Hi).
Qed.

(* an item in a channel is always answered for: a ready entry, a producer about to count/arm,
   or a consumer that holds the pipe *)
Theorem C08_rpq_item_has_owner : forall c s p, np c <= rcap c -> reach c s -> chan s p <> [] ->
  In p (ready s) \/ p_arm (prod s p) = 1%Z \/ p_unc (prod s p) = 1%Z \/
  exists i, i < nc c /\ c_holds p (cons s i) = true.
Proof. exact rpq_item_has_owner. Qed.

(* no lost wake-up (1): nothing in flight, consumers idle or parked, ready list empty
   ==> every channel is empty and every counter is zero *)
Theorem C08_rpq_no_lost_wakeup_quiescent : forall c s, np c <= rcap c -> reach c s ->
  (forall p, p < np c -> prod s p = PIdle) ->
  (forall i, i < nc c -> cons s i = CIdle \/ cons s i = CWait) ->
  ready s = [] ->
  forall p, p < np c -> chan s p = [] /\ queued s p = 0%Z /\ reserved s p = 0%Z.
Proof.
  intros c s Hcap Hr Hp Hc Hrd p Hlt. apply (pipe_drained c s p (reach_inv c s Hcap Hr) (Hp p Hlt)).
  - rewrite Hrd. intros [].
  - intros k Hk. destruct (Hc k Hk) as [-> | ->]; reflexivity.
Qed.

(* no lost wake-up (2), deadlock freedom: an item is queued and some consumer is receiving
   ==> some thread has an enabled step *)
Theorem C08_rpq_no_lost_wakeup : forall c s p, np c <= rcap c -> reach c s -> p < np c -> chan s p <> [] ->
  (exists i, i < nc c /\ c_wants s i = true) ->
  exists e s', (exists t, e = RunP t \/ e = RunC t) /\ step c s e = Some s'.
Proof. exact rpq_no_lost_wakeup. Qed.

(* progress: a pop() that finds a ready entry returns an item of that pipe within five of its own
   steps, whatever the other threads are doing (it waits for nobody) *)
Theorem C08_rpq_pop_completes : forall c s i q rd, np c <= rcap c -> reach c s -> i < nc c ->
  cons s i = CWait -> ready s = q :: rd ->
  exists k x, k <= 5 /\
    let s' := run c (repeat (RunC i) k) s in
    cons s' i = CIdle /\ hd [] (out s') = [1; N.of_nat i; 4; 0; N.of_nat q; x]%N /\
    taken s' = taken s ++ [(q, x)] /\ cprog s' i = cprog s i.
Proof. exact rpq_pop_completes. Qed.

(* a consumer that has taken a ready entry cannot be cancelled and is never blocked until it returns *)
Theorem C08_rpq_taken_is_returned : forall c s i, np c <= rcap c -> reach c s -> i < nc c ->
  c_midop (cons s i) = true -> ccancel s i = None /\ exists s', step c s (RunC i) = Some s'.
Proof. exact rpq_taken_is_returned. Qed.

(* cancellation (C09 for the queue): only a blocked channel write and a wait on the empty ready
   list can be cancelled; afterwards the invariant holds, channels / queued / ready list / logs
   are untouched, and the cancelled send's reservation is returned *)
Theorem C08_rpq_cancel_safe : forall c s e s', np c <= rcap c -> reach c s ->
  (exists t, e = CancelP t \/ e = CancelC t) -> step c s e = Some s' ->
  RpqInv c s' /\ ready s' = ready s /\ taken s' = taken s /\
  (forall q, chan s' q = chan s q /\ queued s' q = queued s q /\ pushed s' q = pushed s q) /\
  match e with
  | CancelP p => (exists x, prod s p = SBlock x true) /\ prod s' p = PIdle /\
                 reserved s' p = (reserved s p - 1)%Z /\ (forall q, q <> p -> reserved s' q = reserved s q) /\
                 reserved s' p = (queued s' p + csum (c_c3 p) (cons s') (nc c))%Z
  | CancelC i => cons s i = CWait /\ cons s' i = CIdle /\ forall q, reserved s' q = reserved s q
  | _ => True
  end.
Proof. exact rpq_cancel_safe. Qed.

(* detaching loses nothing: once no reference to a slot is left (Weak::upgrade fails) its channel
   is empty and its counters are zero *)
Theorem C08_rpq_dead_slot_empty : forall c s p, np c <= rcap c -> reach c s -> alive c s p = false ->
  chan s p = [] /\ queued s p = 0%Z /\ reserved s p = 0%Z.
Proof.
  intros c s p Hcap Hr Ha. unfold alive in Ha.
  apply orb_false_iff in Ha as [Ha Hc]. apply orb_false_iff in Ha as [Ha Hp]. apply orb_false_iff in Ha as [_ Hrd].
  apply (pipe_drained c s p (reach_inv c s Hcap Hr)).
  - destruct (prod s p); [reflexivity|discriminate..].
  - intros Hin. pose proof (existsb_false _ _ Hrd p Hin) as H. rewrite Nat.eqb_refl in H. discriminate.
  - intros k Hk. apply (existsb_false _ _ Hc). apply in_seq. lia.
Qed.

(* KNOWN FINDING C08-pop-cancel-after-wake: two consumers parked in pop(); the arming send wakes
   one; its pop() future is dropped before being polled; the other sleeps on a non-empty ready list *)
Theorem C08_wake_cancel_refuted :
  exists c pp cp es, np c <= rcap c /\ wake_lost c (wrun c es (init pp cp, wk0)) = true /\
    chan (fst (wrun c es (init pp cp, wk0))) 0 <> [].
Proof.
  exists (mkCfg 1 2 (fun _ => 1) 1), (fun _ => [Send 100%N]), (fun _ => [Pop]),
         [RunC 0; RunC 1; RunP 0; RunP 0; RunP 0; RunP 0; RunP 0; CancelC 0].
  split; [cbn; lia|]. split; [vm_compute; reflexivity|vm_compute; discriminate].
Qed.

(* outside that class (no woken pop() dropped before its poll) and always with a single consumer:
   a non-empty ready list with a sleeping consumer has a woken, runnable consumer *)
Theorem C08_wake_no_lost_wakeup : forall c pp cp es,
  no_woken_cancel c (init pp cp, wk0) es \/ nc c <= 1 ->
  wake_lost c (wrun c es (init pp cp, wk0)) = false.
Proof.
  intros c pp cp es Hb. pose proof (winv_wrun c es (init pp cp, wk0) (winv_init c pp cp) Hb) as HW.
  destruct (wrun c es (init pp cp, wk0)) as [s w]. exact (winv_not_lost c s w HW).
Qed.

(* the waker-aware run stays inside the states of the abstract model, so all theorems above apply to it *)
Theorem C08_wake_run_reach : forall c es s w, reach c s -> reach c (fst (wrun c es (s, w))).
Proof.
  intros c es. induction es as [|e es IH]; intros s w Hr; [exact Hr|]. cbn [wrun fold_left].
  destruct (wstep c (s, w) e) as [s1 w1] eqn:E. apply IH.
  destruct (wstep_fst c s w e) as [H|H]; rewrite E in H; cbn [fst] in H; rewrite H; [exact Hr|apply reach_step; exact Hr].
Qed.

(* WaitGroup::wait against done(): `g0 true` is the code after the fix: commit (Notified future created
   before the count check); `g0 false` is the order at the pinned commit, kept as the refuted witness. *)
(* headline: on EVERY schedule of add()/done() steps the waiter never sleeps with the count at zero
   and no notify outstanding *)
Theorem C08_wg_fixed_safe : forall xs, glost (grun xs (g0 true)) = false.
Proof. exact wg_fixed_safe. Qed.
(* ... so whenever it cannot move while the count is zero, it has returned *)
Theorem C08_wg_fixed_poll_returns : forall xs, let s := grun xs (g0 true) in
  g_count s = 0 -> g_pend s = 0 -> gstep s = None -> g_pc s = GDone.
Proof. exact wg_fixed_poll_returns. Qed.
(* and a parked waiter returns within its next three steps once the count is zero *)
Theorem C08_wg_proceeds : forall s seen, GJ s -> g_fixed s = true -> g_pc s = GAwait seen ->
  g_count s = 0 -> g_pend s = 0 -> g_pc (grun [GW; GW; GW] s) = GDone.
Proof. intros s seen HJ _. exact (wg_parked_returns s seen HJ). Qed.
(* legacy (fixed finding C08-waitgroup-lost-wakeup): the old order loses the wake-up: the count is
   checked (1), done() brings it to 0 and notifies nobody, then notified() is created and awaited ... *)
Theorem C08_wg_lost_wakeup_refuted :
  exists xs, glost (grun xs (g0 false)) = true /\ gstep (grun xs (g0 false)) = None /\
             g_count (grun xs (g0 false)) = 0.
Proof. exists [GE (EAdd 1); GW; GE EDec; GE ENotify; GW]. repeat split; reflexivity. Qed.
(* ... exactly in the window between the check and the creation of the future *)
Theorem C08_wg_safe_outside : forall xs, ggap_free (g0 false) xs -> glost (grun xs (g0 false)) = false.
Proof. intros xs H. apply GJ_not_lost, GJ_grun; [apply GJ_init|exact H]. Qed.

(* non-vacuity: two pipes (capacity 1 and 2), two consumers; an interleaving in which pipe 0's
   second send blocks on the full channel and is cancelled, pipe 1 uses the batch path, pipe 0 is
   deregistered while its token is in the ready list; everything committed is delivered in order *)
Example C08_example :
  let c := mkCfg 2 2 (fun p => if p =? 0 then 1 else 2) 2 in
  let pp := fun p => if p =? 0 then [Send 100; Send 101]%N else [TrySendBatch [200; 201; 202]]%N in
  let cp := fun i => if i =? 0 then [Pop; Pop] else [TryPop; Pop] in
  let es := [RunP 0; RunP 0; RunP 0; RunP 0; RunP 0;          (* send 100 complete, pipe 0 armed *)
             RunP 0; RunP 0; RunP 0; RunP 0;                  (* send 101: channel full, parked *)
             RunP 1; RunP 1; RunP 1; RunP 1; RunP 1; RunP 1; RunP 1; RunP 1; RunP 1;  (* batch: 200, 201 in, 202 refused *)
             Dereg 0; CancelP 0;
             RunC 0; RunC 1; RunC 0; RunC 1; RunC 0; RunC 1; RunC 0; RunC 1; RunC 1;
             RunC 0; RunC 0; RunC 0; RunC 0; RunC 0; RunC 1] in
  let s := run c es (init pp cp) in
  np c <= rcap c /\ taken_of 0 s = [100]%N /\ taken_of 1 s = [200; 201]%N /\ pushed s 1 = [200; 201]%N /\
  ready s = [] /\ alive c s 0 = false /\ reserved s 0 = 0%Z /\ cons s 1 = CWait.
Proof. vm_compute. repeat split; reflexivity. Qed.
