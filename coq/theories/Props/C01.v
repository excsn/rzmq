(* C01 - accepted messages arrive exactly once, in order, intact.
   The models are Model/{Batch,Egress,IngressDriver,Dealer,Inproc,Pipeline}.v.  Each stage's invariant and its
   order / exactly-once lemmas are in Proofs/BatchProofs.v, EgressProofs.v, IngressDriverProofs.v, DealerProofs.v
   and InprocProofs.v, their composition in Proofs/PipelineProofs.v (over CodecProofs.v and EngineProofs.v for
   the wire format), the byte ceiling of a batch in Proofs/EngineCfgProofs.v.

   Trusted, embodied in the models as FIFO lists: the TCP / unix byte stream, the fibre
   core->session and inproc channels, and that a dropped `ReadyPipeSender::send` future has either
   enqueued its item (and reported Ready in that same poll) or not enqueued it (C08/C09). *)
From Coq Require Import Permutation.
From RZ Require Import Base.Prelude Base.Stepper Model.Codec Proofs.CodecProofs Model.Engine Proofs.EngineProofs
  Model.Actor Model.Batch Proofs.BatchProofs Model.Egress Proofs.EgressProofs
  Model.IngressDriver Proofs.IngressDriverProofs Model.Dealer Proofs.DealerProofs Model.Inproc Proofs.InprocProofs
  Model.Pipeline Proofs.PipelineProofs.
Local Open Scope N_scope.

(* ---- stage 1: batch assembly (sessionx/actor.rs, both branches) ---- *)

(* one activation: batch, then the new carry-over, then the rest of the pipe is exactly the old
   carry-over followed by the pipe - for every message type, size function, option vector, egress
   backlog and queue contents *)
Theorem C01_assemble_order : forall (M : Type) (wsize : M -> N) c pending st b st',
  assemble wsize c pending st = (b, st') -> b ++ fst st' ++ snd st' = fst st ++ snd st.
Proof. exact assemble_order. Qed.

(* any number of cycles and accepted sends in any order: all emitted batches, then what is still
   queued, is the accepted sequence *)
Theorem C01_assemble_run_order : forall (M : Type) (wsize : M -> N) c evs bs st',
  run wsize c ([], []) evs = (bs, st') -> concat bs ++ fst st' ++ snd st' = accepted evs.
Proof. exact assemble_run_order. Qed.

(* the oldest queued message is always sent in the next batch, whatever its size *)
Theorem C01_batch_nonempty_progress : forall (M : Type) (wsize : M -> N) g c pending carry pipe hd tl b st',
  (1 <= b_count c)%nat -> gate_open c pending = true -> carry ++ pipe = hd :: tl ->
  assemble_gen wsize g c pending (carry, pipe) = (b, st') -> exists d, b = hd :: d.
Proof. exact batch_nonempty_progress. Qed.

(* count limit (bound used by C14) *)
Theorem C01_batch_count_bound : forall (M : Type) (wsize : M -> N) g c pending st b st',
  (1 <= b_count c)%nat ->
  assemble_gen wsize g c pending st = (b, st') -> (length b <= max_count_of c pending)%nat.
Proof.
  intros M wsize g c pending [carry pipe] b [c' p'] Hcnt H. pose proof (max_count_pos c pending Hcnt).
  apply assemble_shape in H. destruct H as [b0 c1 d o _ _ -> _ _ Hl _].
  rewrite !app_length in *. destruct (gate_open c pending); lia.
Qed.

(* the pinned commit topped the batch up from the pipe while older messages were still in
   carry-over: order violated (loss and duplication were impossible even then) *)
Theorem C01_assemble_order_legacy_refuted :
  let '(b, (c', p')) := assemble_legacy (fun x : N => x) legacy_cfg 0 ([20; 5009; 20], [21; 22]) in
  b = [20; 21; 22] /\ c' = [5009; 20] /\ p' = [] /\ b ++ c' ++ p' <> [20; 5009; 20; 21; 22].
Proof. vm_compute. repeat split; congruence. Qed.
Theorem C01_assemble_run_order_legacy_refuted :
  let evs := [BSend 20; BSend 5009; BSend 20; BSend 5009; BSend 20; BCycle N 0; BCycle N 0;
              BSend 21; BSend 22; BCycle N 0; BCycle N 0; BCycle N 0] in
  let '(bs, st) := run_legacy (fun x : N => x) legacy_cfg ([], []) evs in
  st = ([], []) /\ accepted evs = [20; 5009; 20; 5009; 20; 21; 22]
  /\ concat bs = [20; 5009; 20; 21; 22; 5009; 20].
Proof. vm_compute. auto. Qed.
Theorem C01_assemble_order_legacy_outside : forall (M : Type) (wsize : M -> N) c pending st b st',
  assemble_legacy wsize c pending st = (b, st') -> topup_over_carry wsize c pending st = false ->
  b ++ fst st' ++ snd st' = fst st ++ snd st.
Proof. intros M wsize c pending st b st' H Hc. eapply assemble_order_gen; [exact H | right; exact Hc]. Qed.
Theorem C01_assemble_no_loss_no_dup : forall (M : Type) (wsize : M -> N) g c evs st bs st',
  run_gen wsize g c st evs = (bs, st') ->
  Permutation (concat bs ++ fst st' ++ snd st') (fst st ++ snd st ++ accepted evs).
Proof. exact assemble_run_perm. Qed.

(* ---- stage 2: EgressBuffer + EgressDriver ---- *)
Theorem C01_egress_stream : forall ops,
  exists e out layout,
    eg_run (eg_new, []) ops = Some (e, out)
    /\ out ++ eg_flat e = cat layout
    /\ data_of layout = pushed_data ops
    /\ Permutation (prio_of layout) (pushed_prio ops)
    /\ (exists done, layout = done ++ e_chunks e /\ out = cat done ++ firstn (e_off e) (cat (e_chunks e)))
    /\ e_msgs e = count_of (e_chunks e)
    /\ e_total e = N.of_nat (length (eg_flat e)).
Proof. exact egress_stream. Qed.
(* without priority pushes: once the buffer has drained, the transport got exactly the pushed
   chunks, concatenated in push order *)
Theorem C01_egress_data_only : forall ops e out,
  pushed_prio ops = [] -> eg_run (eg_new, []) ops = Some (e, out) -> e_chunks e = [] ->
  out = concat (pushed_data ops).
Proof.
  intros ops e out Hnp Hr He. destruct (egress_stream ops) as (e' & out' & layout & Hr' & H1 & H2 & H3 & _).
  rewrite Hr in Hr'. inversion Hr'; subst e' out'. unfold eg_flat in H1. rewrite He in H1. cbn in H1.
  rewrite skipn_nil, app_nil_r in H1. rewrite Hnp in H3. apply Permutation_sym, Permutation_nil in H3.
  rewrite H1, <- H2. apply cat_data_only, H3.
Qed.

(* ---- stage 3: IngressDriver over the per-pipe queue ---- *)
Theorem C01_ingress_exactly_once : forall (T : Type) (weight : T -> nat) (cap : nat) evs,
  let s := i_run weight cap true (i_new T) evs in
  i_delivered s ++ i_q s ++ i_ib s = i_entered s /\ (length (i_q s) <= cap)%nat.
Proof. exact ingress_exactly_once. Qed.

(* ---- stage 4a: DEALER's pending queue and processor ---- *)
Theorem C01_dealer_no_loss_no_dup : forall (M : Type) ser hwm evs,
  let s := d_run ser hwm evs in Permutation (d_routed s ++ d_pend s) (@d_accepted M s).
Proof.
  intros M ser hwm evs. apply fold_left_inv with (P := fun s => Permutation (d_routed s ++ d_pend s) (d_accepted s)).
  - intros s e. apply d_step_perm.
  - constructor.
Qed.
Theorem C01_dealer_direct_order : forall (M : Type) hwm evs,
  sends_after_attach false evs = true ->
  let s := d_run false hwm evs in d_pend s = [] /\ d_routed s = @d_accepted M s.
Proof. exact dealer_direct_order. Qed.
(* messages accepted while the connection was being established: handed over one per wake-up,
   overtaken by later sends, the rest stays queued on an idle connected socket *)
Theorem C01_dealer_queue_refuted :
  let s := d_run false 1000 [DSend 0%nat; DSend 1%nat; DSend 2%nat; DAttach nat; DWakeQ nat; DWakeP nat; DSend 3%nat] in
  d_quiescent s = true /\ d_accepted s = [0; 1; 2; 3]%nat /\ d_routed s = [0; 1; 3]%nat /\ d_pend s = [2%nat].
Proof. vm_compute. auto. Qed.
(* a serialised queue (repair sketch) keeps order in every history *)
Theorem C01_dealer_serialised_order : forall (M : Type) hwm evs,
  let s := d_run true hwm evs in
  d_routed s ++ d_pend s = @d_accepted M s /\ (d_quiescent s = true -> d_routed s = d_accepted s).
Proof. exact dealer_serialised_order. Qed.

(* ---- stage 4b: inproc channel + reader task ---- *)
(* for every interleaving of sender, reader task and consumer, and every batching of the reader
   (rcvbatch_count, what try_recv_batch found): delivered ++ queue ++ in-flight ++ out ++ channel =
   accepted, in order; at quiescence delivered = accepted *)
Theorem C01_inproc_exactly_once : forall chan_cap cap rcvbatch evs,
  sends_whole evs = true ->
  let s := n_run chan_cap cap rcvbatch evs in
  n_delivered s ++ n_q s ++ fly_list s ++ n_out s ++ n_rx s = n_sent s.
Proof.
  intros chan_cap cap rcvbatch evs Hw. apply (n_run_msgs chan_cap cap rcvbatch evs n_new Hw). repeat split; reflexivity.
Qed.
Theorem C01_inproc_quiescent : forall chan_cap cap rcvbatch evs,
  sends_whole evs = true ->
  let s := n_run chan_cap cap rcvbatch evs in
  prefix (n_delivered s) (n_sent s) /\
  (n_q s = [] -> n_fly s = None -> n_out s = [] -> n_rx s = [] -> n_delivered s = n_sent s).
Proof.
  intros chan_cap cap rcvbatch evs Hw s. pose proof (C01_inproc_exactly_once chan_cap cap rcvbatch evs Hw) as H. fold s in H. split.
  - eexists. symmetry. exact H.
  - intros Hq Hf Ho Hr. unfold fly_list in H. rewrite Hq, Hf, Ho, Hr, !app_nil_r in H. exact H.
Qed.
Theorem C01_inproc_frames_conserved : forall chan_cap cap rcvbatch evs,
  let s := n_run chan_cap cap rcvbatch evs in
  concat (n_delivered s) ++ concat (n_q s) ++ concat (fly_list s) ++ concat (n_out s) ++ n_acc s ++ concat (n_rx s)
  = concat (n_sent s).
Proof.
  intros chan_cap cap rcvbatch evs. exact (fold_left_inv _ NInvF (n_step_frames chan_cap cap rcvbatch) evs n_new eq_refl).
Qed.

(* ---- composition (tcp / ipc) ---- *)
Theorem C01_end_to_end : forall bc ec cap g0 evs,
  e_phase (g_st g0) = PData -> e_partial (g_st g0) = [] -> g_acc g0 = [] ->
  let s := p_run bc ec cap g0 evs in
  Forall (wf_msg ec) (p_accepted s) ->
  prefix (p_received s) (p_accepted s) /\ (p_quiescent s -> p_received s = p_accepted s).
Proof. exact end_to_end. Qed.

(* non-vacuity: a concrete schedule with a multi-frame and a long message, small ceilings, partial
   writes, odd read sizes, a blocked and cancelled ingress driver; it ends quiescent and delivers *)
Example C01_example :
  let s := p_run ex_bc ex_cfg 1 ex_g0 ex_evs in
  e_phase (g_st ex_g0) = PData /\ e_partial (g_st ex_g0) = [] /\ g_acc ex_g0 = [] /\
  Forall (wf_msg ex_cfg) (p_accepted s) /\
  p_accepted s = [ex_m1; ex_m2; ex_m3] /\ p_received s = [ex_m1; ex_m2; ex_m3] /\ p_quiescent s.
Proof.
  split; [reflexivity|]. split; [reflexivity|]. split; [reflexivity|]. split.
  - change (p_accepted (p_run ex_bc ex_cfg 1 ex_g0 ex_evs)) with [ex_m1; ex_m2; ex_m3].
    (* the bound on the number of frames by lia: `constructor` would build 2 <= 255 from 253 le_S *)
    repeat apply Forall_cons; [| | | apply Forall_nil];
      (constructor; [| repeat constructor; try (vm_compute; lia); try (vm_compute; congruence) | vm_compute; lia]).
    + exists [data_frame true [1; 2]], (data_frame false (fill 300 5)). repeat split; repeat constructor.
    + exists [], (data_frame false [7]). repeat split; repeat constructor.
    + exists [], (data_frame false (fill 40 9)). repeat split; repeat constructor.
  - vm_compute. repeat split.
Qed.

(* ---- the physical byte ceiling of a batch (config().sndbatch_bytes_physical = calculate_required_slot_size, options.rs:854;
   Model/EngineCfg.v, regenerated from the source on every run): whatever the sizes, a batch of at most SNDBATCH_COUNT
   single-frame messages whose payloads stay within SNDBATCH_BYTES fits, framed, under the ceiling - so the logical
   limits never admit a batch that the physical limit must then cut (page = sysconf(_SC_PAGESIZE) > 0) ---- *)
From RZ Require Import Model.Options Model.EngineCfg Proofs.EngineCfgProofs.
Theorem C01_physical_ceiling_admits_logical_batch : forall (page target count : N) (sizes : list N), 0 < page -> N.of_nat (length sizes) <= count -> sum sizes <= target -> sum (map framed sizes) <= slot_size page target count.
Proof. exact slot_holds_batch. Qed.
