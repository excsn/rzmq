(* C20 - the io_uring backend is observably equivalent to the Tokio backend; its borrowed buffers
   always come back; every connection fd is closed exactly once.
   PROVED here: the delivery path of the io_uring handler (spill-over), the send-buffer pool, the
   provided-buffer ring and the handler's close paths as automata, and the equivalence of the two
   connection shells around the shared engine - together with the configurations and histories in
   which the code is NOT equivalent / does not conserve (`_refuted` witnesses, each replayed on the real
   code by the check).  NOT modelled: cqe_processor.rs / main_loop.rs / multishot_reader.rs
   (completion handling) - differential exploration only. *)
From RZ Require Import Base.Prelude Base.Stepper Model.Codec Proofs.CodecProofs Model.Engine
  Proofs.EngineProofs Model.Actor Proofs.ActorProofs Model.Spill Proofs.SpillProofs Model.UringPool
  Proofs.UringPoolProofs Proofs.UringRingProofs Model.UringShell Proofs.UringShellProofs.
From Coq Require Import Permutation.
Local Open Scope N_scope.

(* ---------- spill-over ---------- *)

(* For every order of deliveries, attach, resume, drain and throttle polls, and every pattern of
   "pipe full / not full / not attached yet": what has entered the socket's queue, followed by what is
   still stashed, is exactly the engine's delivery sequence - nothing lost, duplicated or reordered. *)
Theorem C20_spill_fifo : forall (A : Type) (es : list (sev A)),
  forallb ev_open es = true ->
  snd (sp_run sp_init es) ++ s_q (fst (sp_run sp_init es)) = sp_delivered es.
Proof. intros A es H. exact (sp_run_conserves es sp_init H). Qed.

(* drain on resume: an attached, not-closing handler hands over the whole stash, in order, as soon as
   the pipe has room for it *)
Theorem C20_spill_flush : forall (A : Type) (s : spill A) (n : nat) (d : bool),
  s_attached s = true -> s_closing s && negb (s_deadline s) = false -> (length (s_q s) <= n)%nat ->
  snd (sp_prepare s (repeat TOk n) d) = s_q s /\ s_q (fst (sp_prepare s (repeat TOk n) d)) = [] /\
  (s_q s <> [] -> s_thr (fst (sp_prepare s (repeat TOk n) d)) = false).
Proof. exact (@spill_flush_thm). Qed.

(* hence the application receives exactly the engine's deliveries, provided the connection is not
   marked closing while something is stashed *)
Theorem C20_spill_complete : forall (A : Type) (es : list (sev A)) (n : nat) (d : bool),
  forallb ev_open es = true -> forallb ev_not_eof es = true ->
  (length (s_q (fst (sp_run sp_init es))) <= n)%nat ->
  snd (sp_run sp_init (es ++ [SAttach; SPrepare (repeat TOk n) d])) = sp_delivered es /\
  s_q (fst (sp_run sp_init (es ++ [SAttach; SPrepare (repeat TOk n) d]))) = [].
Proof. exact (@spill_complete_thm). Qed.

(* no read is issued while anything is stashed *)
Theorem C20_spill_throttled_while_stashed : forall (A : Type) (s : spill A) (d : bool),
  s_q s <> [] -> snd (sp_throttle s d) = true.
Proof.
  intros A s d H. unfold sp_throttle. destruct (s_closing s); [reflexivity|].
  destruct (s_q s); [congruence|reflexivity].
Qed.

(* outside that class: a stash that exists when the handler becomes closing is never delivered *)
Theorem C20_spill_eof_strands_refuted :
  exists es : list (sev nat),
    forallb ev_open es = true /\
    snd (sp_run sp_init (es ++ [SAttach; SPrepare (repeat TOk 8) true; SPrepare (repeat TOk 8) true])) = [] /\
    sp_delivered es = [7; 8]%nat.
Proof. exists [SDeliver 7 TOk; SDeliver 8 TOk; SEof]%nat. vm_compute. repeat split. Qed.

(* ---------- send-buffer pool ---------- *)

(* every order of acquire / lease / release / lease drop, double and unknown releases included *)
Theorem C20_pool_free_nodup : forall count cap os,
  let p := fst (pool_run (pool_new count cap) os) in
  NoDup (p_free p) /\ Forall (fun i => (i < length (p_inuse p))%nat) (p_free p) /\
  length (p_inuse p) = length (p_inuse (pool_new count cap)).
Proof.
  intros count cap os p. subst p.
  destruct (pool_run_wf _ os _ (pool_new_wf count cap)) as (H1 & H2 & H3). rewrite H3. auto.
Qed.

(* free (+) held = all ids for every history in which each holder gives its buffer back at most once *)
Theorem C20_pool_conservation : forall count cap os,
  snd (pool_ghost (pool_new count cap) [] 0 os) = true ->
  let p := fst (pool_run (pool_new count cap) (map fst os)) in
  let held := fst (pool_ghost (pool_new count cap) [] 0 os) in
  Permutation (p_free p ++ map snd held) (seq 0 (length (p_inuse p))).
Proof. intros count cap os H. apply pool_conservation_gen; [apply pool_new_cons|exact H]. Qed.

Theorem C20_pool_refills : forall count cap os,
  snd (pool_ghost (pool_new count cap) [] 0 os) = true ->
  fst (pool_ghost (pool_new count cap) [] 0 os) = [] ->
  length (p_free (fst (pool_run (pool_new count cap) (map fst os)))) = length (p_inuse (pool_new count cap)).
Proof.
  intros count cap os H He. pose proof (C20_pool_conservation count cap os H) as P. cbn zeta in P.
  rewrite He, app_nil_r in P. apply Permutation_length in P. rewrite seq_length in P. rewrite P.
  apply (pool_run_wf _ (map fst os) _ (pool_new_wf count cap)).
Qed.

(* a double release never duplicates an id in the free list (theorem above) but it does hand a buffer
   that is still held to a second holder *)
Theorem C20_pool_double_release_refuted :
  snd (pool_ghost (pool_new 1 8) [] 0 double_release_history) = false /\
  map snd (fst (pool_ghost (pool_new 1 8) [] 0 double_release_history)) = [0; 0]%nat /\
  snd (pool_run (pool_new 1 8) (map fst double_release_history)) = [Some 0; None; Some 0; None; Some 0]%nat.
Proof. vm_compute. repeat split. Qed.

(* ---------- provided-buffer ring ---------- *)

Theorem C20_ring_conservation : forall requested cap r0 os,
  ring_new requested cap = Some r0 ->
  let n := length (r_slots r0) in
  let '(r, g) := ring_run r0 g0 os in
  length (r_slots r) = n /\ Forall (fun x => x <> None) (r_slots r) /\
  (forall b, (cnt b (slot_bufs (r_slots r)) + cnt b (r_free r) + cnt b (g_out g) + cnt b (g_dead g) =
             if b <? r_next r then 1 else 0)%nat) /\
  (length (r_free r) <= r_max r)%nat /\
  (ring_disciplined r0 g0 os = true ->
   forall bid, (cnt bid (r_entries r) + cnt bid (r_cq r) = if bid <? n then 1 else 0)%nat).
Proof.
  intros requested cap r0 os Hn n. destruct (ring_new_inv _ _ _ Hn) as [HI HK].
  pose proof (ring_run_inv n os r0 g0 HI) as H. destruct (ring_run r0 g0 os) as [r g].
  destruct H as ((H1 & H2 & H3 & H4) & K). repeat split; try assumption. exact (K HK).
Qed.

Theorem C20_ring_refills : forall requested cap r0 os,
  ring_new requested cap = Some r0 -> ring_disciplined r0 g0 os = true ->
  let '(r, g) := ring_run r0 g0 os in
  r_cq r = [] -> forall bid, (cnt bid (r_entries r) = if bid <? length (r_slots r0) then 1 else 0)%nat.
Proof.
  intros requested cap r0 os Hn Hd. pose proof (C20_ring_conservation requested cap r0 os Hn) as H.
  cbn zeta in H. destruct (ring_run r0 g0 os) as [r g]. destruct H as (_ & _ & _ & _ & K).
  intros Hc bid. specialize (K Hd bid). rewrite Hc, cnt_nil in K. lia.
Qed.

Theorem C20_ring_take_unreported_refuted :
  exists r0, ring_new 2 8 = Some r0 /\
  ring_disciplined r0 g0 [RTake 0 1] = false /\
  r_entries (fst (ring_run r0 g0 [RTake 0 1])) = [0; 1; 0]%nat.
Proof. eexists. split; [reflexivity|]. vm_compute. split; reflexivity. Qed.

(* ---------- fd table / close paths ---------- *)

(* for every order of EOF, failed completion, protocol error, pipe closed, reader error, shutdown
   request and close completion: at most one successful close; at most one Close SQE unless a read /
   setsockopt completion is still processed after the handler was marked closing *)
Theorem C20_fd_closed_once : forall es,
  fd_delayed es = false ->
  let s := fd_run fd_fresh es in
  (f_closed s <= 1)%nat /\ (f_closed s <= f_close_sqes s)%nat /\
  (f_close_sqes s <= 1 + fd_late fd_fresh es)%nat /\
  (f_present s = false -> f_closed s = 1%nat).
Proof.
  intros es Hd s. destruct (fd_run_inv es fd_fresh fd_fresh_inv) as (H1 & H2 & H3 & _).
  repeat split; try assumption; [|apply H3]. exact (fd_sqes_bound es fd_fresh fd_fresh_inv Hd eq_refl).
Qed.

Theorem C20_fd_double_close_refuted :
  f_close_sqes (fd_run fd_fresh [FPipeClosed; FEof]) = 2%nat /\
  f_close_sqes (fd_run fd_fresh [FReaderErr; FIoErr]) = 2%nat /\
  fd_late fd_fresh [FPipeClosed; FEof] = 1%nat.
Proof. vm_compute. repeat split. Qed.

(* a protocol / security error on a live handler submits exactly one Close *)
Theorem C20_fd_peer_error_closes : forall s,
  f_present s = true -> f_closing s = false ->
  f_close_sqes (fd_step s FPeerErr) = S (f_close_sqes s) /\ f_closing (fd_step s FPeerErr) = true.
Proof. intros [p c d q k]. cbn. intros -> ->. cbn. split; reflexivity. Qed.

(* ---------- the two shells ---------- *)

(* For every configuration, every segmentation of the peer's bytes into reads, every interleaving of
   attach / resume / drain / poll events and every pipe-fullness pattern (receiver alive, no hang-up,
   no timer): the io_uring handler and the tokio session forward the same messages in the same order,
   the same handshake outcome and the same error class - all three being functions of the byte stream. *)
Theorem C20_backend_equiv : forall cfg t is,
  forallb uin_plain is = true ->
  let '(h, l) := u_run cfg (u_new t) is in
  let k := t_run cfg (t_new t) (peer_of is) in
  let o := snd (e_net cfg (e_new t) (bytes_of is) 0) in
  l_pipe l ++ s_q (u_sp h) = t_ingress k /\ t_ingress k = deliveries o /\
  l_ctrl l = t_ctrl k /\ t_ctrl k = ctrls o /\
  (* the session alive: same engine, handler not closing; the session gave up: handler closing or its engine Closed *)
  (if t_fatal k then s_closing (u_sp h) = true \/ e_phase (g_st (u_eng h)) = PClosed
   else u_eng h = t_eng k /\ s_closing (u_sp h) = false).
Proof.
  intros cfg t is Hp.
  pose proof (shell_sim cfg false I is [] [] (u_new t) (t_new t) Hp (sim_new t)) as HS.
  destruct (t_run_stream cfg t is Hp) as [T1 T2].
  destruct (u_run cfg (u_new t) is) as [h l]. destruct HS as (_ & S3 & _ & S5 & S6). cbn zeta. auto.
Qed.

(* heartbeat ticks do not separate the backends when HEARTBEAT_IVL is off *)
Theorem C20_backend_equiv_ticks : forall cfg t is,
  c_hb_ivl cfg = None -> forallb uin_plain_tick is = true ->
  let '(h, l) := u_run cfg (u_new t) is in
  let k := t_run cfg (t_new t) (peer_of is) in
  l_pipe l ++ s_q (u_sp h) = t_ingress k /\ l_ctrl l = t_ctrl k /\
  (if t_fatal k then s_closing (u_sp h) = true \/ e_phase (g_st (u_eng h)) = PClosed
   else u_eng h = t_eng k /\ s_closing (u_sp h) = false).
Proof.
  intros cfg t is Hoff Hp.
  pose proof (shell_sim cfg true Hoff is [] [] (u_new t) (t_new t) Hp (sim_new t)) as HS.
  destruct (u_run cfg (u_new t) is) as [h l]. destruct HS as (_ & S3 & _ & S5 & S6). auto.
Qed.

(* NOT equivalent: HEARTBEAT_IVL / HEARTBEAT_TIMEOUT (the handler never calls on_tick) *)
Theorem C20_heartbeat_refuted :
  let k := t_run hb_cfg (t_new 0) (peer_of hb_history) in
  let '(h, l) := u_run hb_cfg (u_new 0) hb_history in
  existsb is_ping (t_net k) = true /\ t_ctrl k = [KEstablished None; KError ETimeout] /\ t_fatal k = true /\
  existsb is_ping (l_net l) = false /\ l_ctrl l = [KEstablished None] /\ s_closing (u_sp h) = false /\
  l_pipe l ++ s_q (u_sp h) = t_ingress k.
Proof. vm_compute. repeat split. Qed.

(* NOT equivalent: HANDSHAKE_IVL (the handler has no handshake timer) *)
Theorem C20_handshake_timeout_refuted : forall cfg,
  let k := t_run cfg (t_new 0) (peer_of [UHsTimeout]) in
  let '(h, l) := u_run cfg (u_new 0) [UHsTimeout] in
  t_ctrl k = [KError ETimeout] /\ t_fatal k = true /\
  l_ctrl l = [] /\ s_closing (u_sp h) = false.
Proof. intros cfg. vm_compute. repeat split. Qed.

(* the hypotheses are satisfiable on a non-trivial history: a handshake and a data frame split over
   two reads, the second delivered into a full pipe, then attach + drain *)
Example C20_example :
  let is := [UNet (firstn 70 legacy_witness_stream) 0 []; UNet (skipn 70 legacy_witness_stream) 5 [TFull];
             UPoll false; UAttach; UPrepare [TOk] true] in
  forallb uin_plain is = true /\
  l_pipe (snd (u_run legacy_witness_cfg (u_new 0) is)) = [[data_frame false [1; 2; 3]]] /\
  snd (pool_ghost (pool_new 2 8) [] 0 [(PAcquire 4, 0%nat); (PLease, 0%nat); (PRelease 0, 0%nat); (PDrop 1 false, 1%nat)]) = true.
Proof. vm_compute. repeat split. Qed.
