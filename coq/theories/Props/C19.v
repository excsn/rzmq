(* C19 - heartbeats detect dead peers and never kill live ones (engine timing logic). *)
From RZ Require Import Base.Prelude Base.Stepper Model.Codec Proofs.CodecProofs Model.Engine
  Proofs.EngineProofs Proofs.EngineSafety Proofs.EngineHeartbeat Model.HbActor Proofs.HbActorProofs.
Local Open Scope N_scope.

(* the complete decision rule of on_tick, for every configuration, state and time *)
Theorem C19_tick_rule : forall cfg g now, hb_active g ->
  e_tick cfg g now =
    if timed_out cfg g now then
      ({| g_st := closed (g_st g); g_acc := g_acc g; g_hb := g_hb g |}, [OErr ETimeout])
    else if ping_due cfg g now then
      ({| g_st := g_st g; g_acc := g_acc g;
          g_hb := {| h_last_activity := h_last_activity (g_hb g); h_last_ping := Some now; h_waiting := true |} |},
       [ping_out cfg])
    else (g, []).
Proof. exact tick_rule. Qed.
Theorem C19_tick_inactive : forall cfg g now, ~ hb_active g -> e_tick cfg g now = (g, []).
Proof. exact tick_inactive. Qed.

(* a PING is sent no sooner than HEARTBEAT_IVL after the last activity, and only if none is outstanding *)
Theorem C19_ping_not_early : forall cfg g now x,
  In x (snd (e_tick cfg g now)) -> (exists b z, x = OSend b z) ->
  exists ivl, c_hb_ivl cfg = Some ivl /\ h_waiting (g_hb g) = false /\ ivl <= now - h_last_activity (g_hb g).
Proof. exact ping_not_early. Qed.

(* ... and no later than two intervals after it, when ticks come at most one interval apart *)
Theorem C19_ping_within_two_ivl : forall cfg g prev now ivl,
  hb_active g -> c_hb_ivl cfg = Some ivl -> h_waiting (g_hb g) = false -> timed_out cfg g now = false ->
  prev < h_last_activity (g_hb g) + ivl -> now <= prev + ivl -> h_last_activity (g_hb g) + ivl <= now ->
  snd (e_tick cfg g now) = [ping_out cfg] /\ now < h_last_activity (g_hb g) + 2 * ivl.
Proof. exact ping_within_two_ivl. Qed.

(* no PONG within HEARTBEAT_TIMEOUT of the PING: closed with Timeout at the next tick *)
Theorem C19_dead_peer_closed : forall cfg g now t p,
  hb_active g -> c_hb_timeout cfg = Some t -> h_waiting (g_hb g) = true -> h_last_ping (g_hb g) = Some p ->
  p + t <= now ->
  snd (e_tick cfg g now) = [OErr ETimeout] /\ e_phase (g_st (fst (e_tick cfg g now))) = PClosed.
Proof. exact dead_peer_closed. Qed.

(* ... at trace level: whatever else happens after the PING at p - outbound writes (which refresh the activity
   stamp), application sends, inbound frames that are not a PONG, earlier ticks - the first tick at or after
   p + HEARTBEAT_TIMEOUT closes the connection; the deadline is anchored at the PING, not at the last activity *)
Theorem C19_dead_peer_closed_despite_traffic : forall cfg t p now is g,
  c_hb_timeout cfg = Some t -> h_waiting (g_hb g) = true -> h_last_ping (g_hb g) = Some p ->
  unanswered_run cfg g is = true ->
  hb_active (fst (e_run cfg g is)) -> p + t <= now ->
  snd (e_tick cfg (fst (e_run cfg g is)) now) = [OErr ETimeout] /\
  e_phase (g_st (fst (e_tick cfg (fst (e_run cfg g is)) now))) = PClosed.
Proof.
  intros cfg t p now. induction is as [|i is IH]; intros g Ht Hw Hp Hu Ha Hn.
  - cbn [e_run fst] in *. eapply dead_peer_closed; eauto.
  - cbn [unanswered_run] in Hu. apply andb_true_iff in Hu. destruct Hu as [Hi Hr].
    rewrite e_run_cons in *. cbn [fst] in *.
    destruct (unanswered_keeps_ping cfg g i p Hw Hp Hi) as [Hw' Hp'].
    apply IH; assumption.
Qed.
(* outbound writes refresh the activity stamp and nothing else; no PING sooner than one interval after a write *)
Theorem C19_wrote_only_refreshes_activity : forall cfg g w,
  let g' := fst (e_wrote cfg g w) in
  g_st g' = g_st g /\ g_acc g' = g_acc g /\ h_last_activity (g_hb g') = w /\
  h_last_ping (g_hb g') = h_last_ping (g_hb g) /\ h_waiting (g_hb g') = h_waiting (g_hb g) /\
  snd (e_wrote cfg g w) = [].
Proof. cbn. repeat split; reflexivity. Qed.
Theorem C19_ping_not_early_after_write : forall cfg g w now x,
  In x (snd (e_tick cfg (fst (e_wrote cfg g w)) now)) -> (exists b z, x = OSend b z) ->
  exists ivl, c_hb_ivl cfg = Some ivl /\ ivl <= now - w.
Proof.
  intros cfg g w now x Hin Hx. destruct (ping_not_early _ _ _ _ Hin Hx) as [ivl [Hi [_ Hl]]].
  exists ivl. split; [exact Hi|exact Hl].
Qed.
(* the session's backstop timer (get_pong_deadline) is PING time + timeout and is not moved by writes *)
Theorem C19_pong_deadline_from_ping : forall cfg g p,
  h_waiting (g_hb g) = true -> h_last_ping (g_hb g) = Some p ->
  e_pong_deadline cfg g = Some (p + match c_hb_timeout cfg with Some t => t | None => 30000000000 end).
Proof. exact pong_deadline_from_ping. Qed.
Theorem C19_pong_deadline_ignores_writes : forall cfg g w,
  e_pong_deadline cfg (fst (e_wrote cfg g w)) = e_pong_deadline cfg g.
Proof. reflexivity. Qed.

(* the heartbeat logic closes a connection ONLY when a PING has been outstanding for the timeout ... *)
Theorem C19_timeout_only_when_unanswered : forall cfg g now,
  In (OErr ETimeout) (snd (e_tick cfg g now)) ->
  exists t p, c_hb_timeout cfg = Some t /\ h_waiting (g_hb g) = true /\ h_last_ping (g_hb g) = Some p /\ t <= now - p.
Proof. exact timeout_only_when_unanswered. Qed.
(* ... so a peer whose PONGs arrive before each deadline is never disconnected, over any input history *)
Theorem C19_live_peer_safe : forall cfg is g,
  answered_run cfg g is = true -> Forall no_to (snd (e_run cfg g is)).
Proof. exact live_peer_safe. Qed.
Theorem C19_pong_clears_waiting : forall cfg g d now st r o,
  pump (estep cfg) emu EMU_MAX (g_st g) (g_acc g ++ d) = (st, r, o) -> has_pong o = true ->
  h_waiting (g_hb (fst (e_net cfg g d now))) = false.
Proof. intros cfg g d now st r o Hp Ho. unfold e_net. rewrite Hp. cbn. rewrite Ho. reflexivity. Qed.
(* ... nor is one on which traffic keeps flowing *)
Theorem C19_traffic_keeps_alive : forall cfg g now ivl,
  c_hb_ivl cfg = Some ivl -> h_waiting (g_hb g) = false -> now - h_last_activity (g_hb g) < ivl ->
  e_tick cfg g now = (g, []).
Proof.
  intros cfg g now ivl Hi Hw Hl. destruct (tick_cases cfg g now) as [E | [[Ht _] | (_ & Hd & _)]]; [exact E|exfalso..].
  - apply timed_out_true in Ht. destruct Ht as (t & p & _ & Hw' & _). congruence.
  - apply ping_due_true in Hd. destruct Hd as (ivl' & Hi' & _ & Hl'). assert (ivl' = ivl) by congruence. lia.
Qed.

(* ---------- the session actor's two timers around the engine (Model/HbActor.v) ---------- *)
(* the session gives up with Timeout only at a tick or at its backstop timer, and only when a PING has been
   outstanding for the whole window (HEARTBEAT_TIMEOUT; 30 s for the backstop when the option is unset) *)
Theorem C19_session_timeout_not_early : forall cfg s e,
  a_fatal s = None -> a_fatal (fst (a_step cfg s e)) = Some ETimeout ->
  exists now p, (e = ATick now \/ e = ADeadline now) /\
    h_waiting (g_hb (a_eng s)) = true /\ h_last_ping (g_hb (a_eng s)) = Some p /\
    (match e with ATick _ => exists t, c_hb_timeout cfg = Some t /\ t <= now - p | _ => hb_window cfg <= now - p end).
Proof. exact a_timeout_not_early. Qed.
Theorem C19_session_dead_peer_closed_at_deadline : forall cfg s p now,
  a_fatal s = None -> h_waiting (g_hb (a_eng s)) = true -> h_last_ping (g_hb (a_eng s)) = Some p ->
  p + hb_window cfg <= now ->
  a_fatal (fst (a_step cfg s (ADeadline now))) = Some ETimeout /\ snd (a_step cfg s (ADeadline now)) = [OErr ETimeout].
Proof. exact a_dead_peer_closed_at_deadline. Qed.
Theorem C19_session_deadline_not_due : forall cfg s p now,
  a_fatal s = None -> h_waiting (g_hb (a_eng s)) = true -> h_last_ping (g_hb (a_eng s)) = Some p ->
  now < p + hb_window cfg -> a_step cfg s (ADeadline now) = (s, []).
Proof.
  intros cfg s p now Hs Hw Hp Hl. unfold a_step. rewrite Hs, (pong_deadline_from_ping cfg (a_eng s) p Hw Hp).
  fold (hb_window cfg). assert (p + hb_window cfg <=? now = false) as -> by lia. reflexivity.
Qed.
Theorem C19_session_dead_peer_closed_at_tick : forall cfg s t p now,
  a_fatal s = None -> hb_active (a_eng s) -> c_hb_timeout cfg = Some t ->
  h_waiting (g_hb (a_eng s)) = true -> h_last_ping (g_hb (a_eng s)) = Some p -> p + t <= now ->
  a_fatal (fst (a_step cfg s (ATick now))) = Some ETimeout.
Proof.
  intros cfg s t p now Hs Ha Ht Hw Hp Hl. unfold a_step. rewrite Hs.
  destruct (dead_peer_closed cfg (a_eng s) now t p Ha Ht Hw Hp Hl) as [Ho _].
  destruct (e_tick cfg (a_eng s) now) as [g o]. cbn [snd] in Ho. subst o. reflexivity.
Qed.
(* whatever happens after the PING at p - local writes, inbound frames that are not a PONG, ticks and backstop polls
   before their deadlines - the session is over (for whatever reason) once the backstop is polled at or after
   p + window: the window is anchored at the PING, not at the last activity *)
Theorem C19_session_dead_peer_closed_despite_traffic : forall cfg p now es s,
  a_fatal s = None -> h_waiting (g_hb (a_eng s)) = true -> h_last_ping (g_hb (a_eng s)) = Some p ->
  a_unanswered_run cfg s es = true -> p + hb_window cfg <= now ->
  a_fatal (fst (a_run cfg s (es ++ [ADeadline now]))) <> None.
Proof. exact a_dead_peer_closed_despite_traffic. Qed.

(* every PING is answered by a PONG with the same context bytes, as its own frame *)
Theorem C19_pong_echoes_context : forall cfg st ttl ctx rest,
  e_phase st = PData -> e_version st <> Some V2 ->
  admitted (c_maxsz cfg) (cmd_frame (ping_body ttl ctx)) ->
  estep cfg st (enc_codec (cmd_frame (ping_body ttl ctx)) ++ rest) =
  Step st (length (enc_codec (cmd_frame (ping_body ttl ctx))))
       [OActivity; OSend (enc_codec (cmd_frame (pong_body ctx))) false].
Proof. exact pong_echoes_context. Qed.
Theorem C19_malformed_ping_ignored : forall cfg st short rest,
  e_phase st = PData -> e_version st <> Some V2 -> (length short < 2)%nat ->
  admitted (c_maxsz cfg) (cmd_frame ((4 :: s_PING) ++ short)) ->
  estep cfg st (enc_codec (cmd_frame ((4 :: s_PING) ++ short)) ++ rest) =
  Step st (length (enc_codec (cmd_frame ((4 :: s_PING) ++ short)))) [OActivity].
Proof. exact malformed_ping_ignored. Qed.

(* no heartbeat is ever sent on a ZMTP/2.0 session *)
Theorem C19_v2_never_pings : forall cfg g now, e_version (g_st g) = Some V2 -> e_tick cfg g now = (g, []).
Proof. exact v2_never_pings. Qed.

Example C19_example :
  let cfg := {| c_server := true; c_stype := s_PULL; c_rid := None; c_sec_enabled := false; c_allow_v2 := true;
                c_use_plain := false; c_use_curve := false; c_use_noise := false; c_plain_user := None;
                c_plain_pass := None; c_opaque_ok := false; c_hb_ivl := Some 1000; c_hb_timeout := Some 500;
                c_cork := false; c_zc := false; c_maxsz := (-1)%Z |} in
  let hs := (255 :: repeat 0 8 ++ [127; 3; 0] ++ mech_field s_NULL ++ [0] ++ repeat 0 31) ++
            enc_codec (cmd_frame ((5 :: s_READY) ++ enc_prop s_SocketType s_PUSH)) in
  let '(g, os) := e_run cfg (e_new 0) [INet hs 0; ITick 500; ITick 1200; ITick 1500; ITick 1800] in
  hb_active (fst (e_run cfg (e_new 0) [INet hs 0])) /\
  map (fun o => length o) os = [4; 0; 1; 0; 1]%nat /\ e_phase (g_st g) = PClosed.
Proof. vm_compute. repeat split; try reflexivity; congruence. Qed.

Example C19_example_writes :
  let cfg := {| c_server := true; c_stype := s_PULL; c_rid := None; c_sec_enabled := false; c_allow_v2 := true;
                c_use_plain := false; c_use_curve := false; c_use_noise := false; c_plain_user := None;
                c_plain_pass := None; c_opaque_ok := false; c_hb_ivl := Some 1000; c_hb_timeout := Some 500;
                c_cork := false; c_zc := false; c_maxsz := (-1)%Z |} in
  let hs := (255 :: repeat 0 8 ++ [127; 3; 0] ++ mech_field s_NULL ++ [0] ++ repeat 0 31) ++
            enc_codec (cmd_frame ((5 :: s_READY) ++ enc_prop s_SocketType s_PUSH)) in
  let g1 := fst (e_run cfg (e_new 0) [INet hs 0; ITick 1200]) in
  h_waiting (g_hb g1) = true /\ h_last_ping (g_hb g1) = Some 1200 /\
  unanswered_run cfg g1 [IWrote 1300; IWrote 1500; ITick 1600; IWrote 1650] = true /\
  hb_active (fst (e_run cfg g1 [IWrote 1300; IWrote 1500; ITick 1600; IWrote 1650])) /\
  e_pong_deadline cfg (fst (e_run cfg g1 [IWrote 1300; IWrote 1500; ITick 1600; IWrote 1650])) = Some 1700.
Proof. vm_compute. repeat split; try reflexivity; congruence. Qed.

Example C19_example_session :
  let cfg := {| c_server := true; c_stype := s_PULL; c_rid := None; c_sec_enabled := false; c_allow_v2 := true;
                c_use_plain := false; c_use_curve := false; c_use_noise := false; c_plain_user := None;
                c_plain_pass := None; c_opaque_ok := false; c_hb_ivl := Some 1000; c_hb_timeout := Some 500;
                c_cork := false; c_zc := false; c_maxsz := (-1)%Z |} in
  let hs := (255 :: repeat 0 8 ++ [127; 3; 0] ++ mech_field s_NULL ++ [0] ++ repeat 0 31) ++
            enc_codec (cmd_frame ((5 :: s_READY) ++ enc_prop s_SocketType s_PUSH)) in
  let s1 := fst (a_run cfg (a_new 0) [ANet hs 0; ATick 1200; AWrote 1201]) in
  let tr := [AWrote 1300; ADeadline 1650; AWrote 1680; ATick 1690] in
  a_fatal s1 = None /\ h_last_ping (g_hb (a_eng s1)) = Some 1200 /\ a_unanswered_run cfg s1 tr = true /\
  a_fatal (fst (a_run cfg s1 tr)) = None /\
  a_fatal (fst (a_run cfg s1 (tr ++ [ADeadline 1700]))) = Some ETimeout.
Proof. vm_compute. repeat split; reflexivity. Qed.

(* ---- HEARTBEAT_IVL / HEARTBEAT_TIMEOUT as the application sets them (option layer, Model/Options.v) ---- *)
From RZ Require Import Model.Options Proofs.OptionsProofs.
(* 0 switches heartbeating off, v > 0 is v ms, negatives and wrong lengths are refused under the option's id *)
Theorem C19_heartbeat_option_semantics : forall (o : opts) (b : bytes), (match apply_opt o HEARTBEAT_IVL b with | inl o' => exists v, i32_of b = Some v /\ 0 <= v /\ heartbeat_ivl_of o' = ivl_decode v /\ (forall g, g <> F_heartbeat_ivl -> o' g = o g) | inr e => e = EVal HEARTBEAT_IVL /\ (i32_of b = None \/ exists v, i32_of b = Some v /\ v < 0) end)%Z /\ (match apply_opt o HEARTBEAT_TIMEOUT b with | inl o' => exists v, i32_of b = Some v /\ 0 <= v /\ heartbeat_timeout_of o' = ivl_decode v /\ (forall g, g <> F_heartbeat_timeout -> o' g = o g) | inr e => e = EVal HEARTBEAT_TIMEOUT /\ (i32_of b = None \/ exists v, i32_of b = Some v /\ v < 0) end)%Z.
Proof.
  intros o b. split; [exact (off_semantics _ _ _ heartbeat_ivl_opt o b) | exact (off_semantics _ _ _ heartbeat_timeout_opt o b)].
Qed.
(* composed with the engine (whose configuration copies the option, Model/EngineCfg.v; engine time is nanoseconds) *)
From RZ Require Import Model.EngineCfg Proofs.OptionsEngine.
Theorem C19_heartbeat_option_ping_not_early : forall (o : opts) (d : Z) cfg g now x, (0 < d <= 2147483647)%Z -> exists o', apply_opt o HEARTBEAT_IVL (i32_bytes d) = inl o' /\ (c_hb_ivl cfg = ms_to_ns (cfg_heartbeat_ivl o') -> In x (snd (e_tick cfg g now)) -> (exists b z, x = OSend b z) -> h_waiting (g_hb g) = false /\ Z.to_N d * 1000000 <= now - h_last_activity (g_hb g)).
Proof. exact heartbeat_option_ping_not_early. Qed.
Theorem C19_heartbeat_option_zero_never_pings : forall (o : opts) cfg g now x, exists o', apply_opt o HEARTBEAT_IVL (i32_bytes 0) = inl o' /\ (c_hb_ivl cfg = ms_to_ns (cfg_heartbeat_ivl o') -> In x (snd (e_tick cfg g now)) -> ~ exists b z, x = OSend b z).
Proof. exact heartbeat_option_zero_never_pings. Qed.
(* the interval options read back as written, 0 (= off) included *)
Theorem C19_heartbeat_option_get_after_set : forall (o : opts) (v : Z), (0 <= v <= 2147483647)%Z -> (exists o', apply_opt o HEARTBEAT_IVL (i32_bytes v) = inl o' /\ retrieve_opt o' HEARTBEAT_IVL = GOk (i32_bytes v)) /\ (exists o', apply_opt o HEARTBEAT_TIMEOUT (i32_bytes v) = inl o' /\ retrieve_opt o' HEARTBEAT_TIMEOUT = GOk (i32_bytes v)) /\ (exists o', apply_opt o HANDSHAKE_IVL (i32_bytes v) = inl o' /\ retrieve_opt o' HANDSHAKE_IVL = GOk (i32_bytes v)).
Proof.
  intros o v H. repeat split;
    [apply (get_after_set heartbeat_ivl_opt o v GMsTrunc eq_refl) | apply (get_after_set heartbeat_timeout_opt o v GMsTrunc eq_refl)
    | apply (get_after_set handshake_ivl_opt o v GMsTrunc eq_refl)]; try (unfold i32r; lia); now apply run_gk_mstrunc.
Qed.
