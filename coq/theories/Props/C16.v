(* C16 - close() and term() always finish and leave nothing running or hanging. The invariants behind the
   statements are in Proofs/LifecycleProofs.v and Proofs/ShutdownProofs.v; models Model/Lifecycle.v (WaitGroup +
   ActorDropGuard over actor lifecycles; the table of user operations), Model/WgWait.v (WaitGroup::wait),
   Model/Shutdown.v. *)
From RZ Require Import Base.Prelude Model.WgWait Model.Lifecycle Model.Engine Model.Batch Model.Pipeline Model.Shutdown.
From RZ Require Import Proofs.WgWaitProofs Proofs.LifecycleProofs Proofs.ShutdownProofs.

(* for every interleaving of spawns, first polls, waive / set_error, normal exits, aborts and panics: the
   WaitGroup counts exactly the actors that hold a guard (each exit path decrements exactly once), and the
   `count was already zero` branch of publish_actor_stopping is never taken *)
Theorem C16_wg_counts_guarded : forall evs,
  l_count (l_run evs) = guarded (l_run evs) /\ l_underflow (l_run evs) = 0.
Proof. exact linv_run. Qed.

(* count = number of live actors: REFUTED - a spawned task that has not been polled yet is alive and not counted
   (every actor creates its ActorDropGuard inside its task), so term() can return before it has even started *)
Theorem C16_wg_counts_live_refuted : exists evs, l_count (l_run evs) = 0 /\ live (l_run evs) = 1.
Proof. exists [LSpawn]. split; reflexivity. Qed.

(* ... and it holds exactly outside that window *)
Theorem C16_wg_counts_live : forall evs,
  l_count (l_run evs) = live (l_run evs) <-> unstarted (l_run evs) = 0.
Proof. intros evs. destruct (linv_run evs) as [H _]. rewrite live_split, H. lia. Qed.

(* Context::term's wait(), against every interleaving of actor events, notifications and its own steps: it sees
   the guard count, never loses its wake-up, and has returned once all guards are dropped and it cannot move *)
Theorem C16_wg_wait_returns : forall xs,
  let '(ls, gs) := c_run xs in
  g_count gs = guarded ls /\ glost gs = false /\
  (guarded ls = 0 -> g_pend gs = 0 -> gstep gs = None -> g_pc gs = GDone).
Proof.
  intros xs. pose proof (c_run_view xs) as H. destruct (c_run xs) as [ls gs]. destruct H as (Hc & ys & ->).
  split; [exact Hc|]. split; [apply wg_fixed_safe|]. intros H0. apply wg_fixed_poll_returns. congruence.
Qed.

Theorem C16_wg_wait_proceeds : forall xs seen,
  let '(ls, gs) := c_run xs in
  g_pc gs = GAwait seen -> guarded ls = 0 -> g_pend gs = 0 -> g_pc (grun [GW; GW; GW] gs) = GDone.
Proof.
  intros xs seen. pose proof (c_run_view xs) as H. destruct (c_run xs) as [ls gs]. destruct H as (Hc & ys & ->).
  intros Hpc H0 Hpe. apply (wg_parked_returns _ seen); [apply GJ_fixed | exact Hpc | congruence | exact Hpe].
Qed.

(* the operations table covers every (socket type, operation) exactly once *)
Theorem C16_table_complete : table_complete = true.
Proof. vm_compute. reflexivity. Qed.

(* send / send_multipart / recv / recv_multipart of every socket type, issued on a closed socket: error at once *)
Theorem C16_closed_ops_fail_fast : forall r lp,
  In r op_table -> o_op r <> UDelegated -> after_close r lp = ErrPrompt.
Proof.
  intros r lp Hin Hop.
  assert (H : forallb (fun r => match o_op r with UDelegated => true | _ =>
                 match o_first r with FMailbox => false | _ => true end end) op_table = true) by (vm_compute; reflexivity).
  rewrite forallb_forall in H. specialize (H r Hin). unfold after_close.
  destruct (o_op r); try contradiction; destruct (o_first r); try discriminate; reflexivity.
Qed.

(* bind / connect / set_option / get_option / monitor ...: error at once, except in one window - REFUTED there *)
Theorem C16_closed_ops_delegated_outside : forall r lp,
  In r op_table -> lp <> LoopDrained -> after_close r lp = ErrPrompt.
Proof.
  intros r lp _ Hlp. unfold after_close. destruct (o_first r); try reflexivity. destruct lp; try reflexivity. contradiction.
Qed.
Theorem C16_closed_ops_delegated_refuted :
  exists r lp, In r op_table /\ o_op r = UDelegated /\ after_close r lp = HangsForever.
Proof.
  exists (R TDealer UDelegated FMailbox AReply WNobody), LoopDrained. split; [|split; reflexivity].
  (* op_table has 32 send / recv rows, then the delegated ones: DEALER's is the fifth of these *)
  apply (nth_error_In op_table 36). reflexivity.
Qed.

(* operations blocked in their first await when close()/term() happens: every one is released by the Stop arm,
   by the sessions' exit or by a timeout (REQ send() waiting for a first peer included, since the fix: commit) *)
Theorem C16_blocked_ops_released : forall r,
  In r op_table -> o_op r <> UDelegated -> blocked_at_close r <> StaysBlocked.
Proof.
  intros r Hin Hop.
  assert (H : forallb (fun r => match o_op r with UDelegated => true | _ =>
                 match blocked_at_close r with StaysBlocked => false | _ => true end end) op_table = true)
    by (vm_compute; reflexivity).
  rewrite forallb_forall in H. specialize (H r Hin).
  destruct (o_op r); try contradiction; destruct (blocked_at_close r); try discriminate; discriminate H.
Qed.

(* the shutdown state machine always terminates, for every LINGER (-1 included), from every reachable state *)
Theorem C16_close_reaches_finished : forall bc ec cap g0 l evs now now' t t',
  c_ph (y_co (y_run bc ec cap l g0 (evs ++ [YClose now now'; YSessStop; YSessGone; YTick t t']))) = SFinished.
Proof. exact sys_close_reaches_finished. Qed.
(* phases only move forward, along every schedule *)
Theorem C16_phase_monotone : forall bc ec cap s e,
  (rank (c_ph (y_co s)) <= rank (c_ph (y_co (y_step bc ec cap s e))))%nat.
Proof. intros bc ec cap s e. rewrite y_co_step. destruct e; auto using rank_initiate, rank_check. Qed.
Theorem C16_finished_stays : forall bc ec cap s e,
  c_ph (y_co s) = SFinished -> c_ph (y_co (y_step bc ec cap s e)) = SFinished.
Proof.
  intros bc ec cap s e H. pose proof (C16_phase_monotone bc ec cap s e) as Hm. rewrite H in Hm.
  destruct (c_ph (y_co (y_step bc ec cap s e))); cbn in Hm; try lia. reflexivity.
Qed.

(* non-vacuity: three actors - one exits normally, one is aborted while running, one is aborted before its
   first poll - while term() waits; the waiter ends in GDone with count 0 *)
Example C16_wait_nonvacuous :
  let xs := [CA LSpawn; CA LSpawn; CA LSpawn; CA (LStart 0); CA (LStart 1); CW; CW; CW;
             CA (LWaive 0); CA (LExit 0); CA (LAbort 2); CA (LAbort 1); CN; CW; CW; CW] in
  let '(ls, gs) := c_run xs in
  l_count ls = 0%nat /\ live ls = 0%nat /\ length (l_stopped ls) = 2%nat /\ g_pc gs = GDone /\ g_calls gs = 1%nat.
Proof. vm_compute. repeat split; reflexivity. Qed.
