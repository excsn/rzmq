(* C15 - LINGER governs what happens to accepted messages at close. The proofs, the short ones apart, are in
   Proofs/ShutdownProofs.v, the model in Model/Shutdown.v (coordinator, the session's reaction to a stop
   request, composed with the data path of Model/Pipeline.v and the peer's engine of Model/Engine.v).
   Time is an abstract clock; every clock read of the code is an explicit argument. *)
From RZ Require Import Base.Prelude Model.Codec Model.Engine Model.Actor Model.Batch Model.Egress Model.Pipeline Model.Shutdown.
From RZ Require Import Proofs.EngineProofs Proofs.ShutdownProofs Model.RxSession Proofs.RxSessionProofs.
Local Open Scope N_scope.

(* A bounded LINGER bounds the shutdown: started at t0 (second clock read t0') with LINGER = d, and with
   maintenance ticks at most P apart (100 ms interval + one loop iteration), the coordinator is Finished
   either at once or at a tick that comes before t0 + d + P - whatever the pipes hold at any tick. *)
Theorem C15_linger_bounds_close : forall d P t0 t0' pe0 ts,
  t0 <= t0' -> spaced P t0' ts -> Exists (fun tk => t0 + d <= tk2 tk) ts ->
  c_ph (initiate (LMs d) t0 t0' pe0 coord0) = SFinished \/
  exists pre tk post, ts = pre ++ tk :: post /\ tk2 tk < t0 + d + P /\
    c_ph (run_ticks (LMs d) (initiate (LMs d) t0 t0' pe0 coord0) (pre ++ [tk])) = SFinished.
Proof. exact coord_linger_bounds_close. Qed.

Theorem C15_finished_stays : forall l c ts, c_ph c = SFinished -> c_ph (run_ticks l c ts) = SFinished.
Proof.
  intros l c ts. revert c. unfold run_ticks. apply (fold_left_inv _ (fun c => c_ph c = SFinished)).
  intros c [[t t'] pe] H. rewrite check_not_lingering by congruence. exact H.
Qed.

(* LINGER 0: initiate_core_shutdown itself reaches Finished, whatever is queued *)
Theorem C15_linger_zero_prompt : forall now now' pe,
  now <= now' -> c_ph (initiate (LMs 0) now now' pe coord0) = SFinished.
Proof. exact coord_linger_zero_prompt. Qed.

(* LINGER -1: only empty pipes end Lingering *)
Theorem C15_infinite_linger_waits : forall t0 t0' ts,
  Forall (fun tk => snd tk = false) ts ->
  c_ph (run_ticks LInf (initiate LInf t0 t0' false coord0) ts) = SLingering.
Proof. exact coord_infinite_linger_waits. Qed.

(* ENGINE LEMMA: whatever LINGER is - for every prefix p of a valid data-phase byte stream, read in any
   chunks and followed by EOF, the messages delivered are the first k of those encoded, each whole and
   unmodified; close() of the engine delivers nothing *)
Theorem C15_close_never_truncates : forall cfg g ms p rest cs,
  e_phase (g_st g) = PData -> e_partial (g_st g) = [] -> g_acc g = [] ->
  Forall (wf_msg cfg) ms ->
  concat (map enc_codec (concat ms)) = p ++ rest ->
  concat (map fst cs) = p ->
  (exists k, snd (nets cfg g cs) = map ODeliver (firstn k ms)) /\
  deliveries (snd (e_close cfg (fst (nets cfg g cs)))) = [].
Proof. exact engine_close_never_truncates. Qed.

(* ... and for the whole path, for every LINGER, every schedule of sends, batch assemblies, partial writes,
   reads, ingress-driver steps, close()/term(), session stop at ANY point, ticks: what the peer's recv() has
   returned is a prefix of what send() accepted *)
Theorem C15_never_truncates_end_to_end : forall bc ec cap g0 l evs,
  e_phase (g_st g0) = PData -> e_partial (g_st g0) = [] -> g_acc g0 = [] ->
  Forall (wf_msg ec) (p_accepted (y_p (y_run bc ec cap l g0 evs))) ->
  prefix (p_received (y_p (y_run bc ec cap l g0 evs))) (p_accepted (y_p (y_run bc ec cap l g0 evs))).
Proof. exact sys_never_truncates. Qed.

(* LINGER = -1 => everything accepted is handed to the transport before the write half is shut:
   REFUTED for the code. Witness: one message in the EgressBuffer when the session takes the stop request;
   the shutdown completes, the write half is shut, nothing was written. *)
Theorem C15_linger_transmits_all_refuted :
  exists evs,
    let s := y_run ex_bc ex_cfg 4 LInf ex_g0 evs in
    c_ph (y_co s) = SFinished /\ y_eof s = true /\ p_accepted (y_p s) = [ex_m2] /\
    p_written (y_p s) = [] /\ snd (y_lost s) = enc_contiguous [ex_m2] /\ ~ all_transmitted s.
Proof. exists wit_evs. vm_compute. repeat split; try reflexivity. discriminate. Qed.

(* second witness: the message has not even left the socket-to-session pipe - the session reacts to the
   SocketClosing / ContextTerminating bus event itself, without waiting for the coordinator *)
Theorem C15_linger_pipe_message_lost :
  exists evs,
    let s := y_run ex_bc ex_cfg 4 LInf ex_g0 evs in
    c_ph (y_co s) = SFinished /\ y_eof s = true /\ p_accepted (y_p s) = [ex_m2] /\
    fst (y_lost s) = [ex_m2] /\ p_written (y_p s) = [].
Proof. exists wit_pipe_evs. vm_compute. repeat split; reflexivity. Qed.

(* OUTSIDE the failing class: LINGER = -1, the session is told to stop only by the coordinator (after
   Lingering) and holds nothing in core_carryover / EgressBuffer at that moment => all transmitted *)
Theorem C15_linger_transmits_all_outside : forall bc ec cap g0 evs,
  stop_after_linger bc ec cap (y_init LInf g0) evs ->
  local_buffers_empty_at_stop bc ec cap (y_init LInf g0) evs ->
  y_eof (y_run bc ec cap LInf g0 evs) = true -> all_transmitted (y_run bc ec cap LInf g0 evs).
Proof. exact sys_linger_transmits_all_outside. Qed.

(* the messages still in the socket-to-session pipe: with LINGER = -1 the coordinator does not finish while
   a live session's pipe holds a message - for every schedule *)
Theorem C15_linger_drains_pipe : forall bc ec cap g0 evs,
  y_sess (y_run bc ec cap LInf g0 evs) = SOperational ->
  c_ph (y_co (y_run bc ec cap LInf g0 evs)) = SFinished ->
  p_pipe (y_p (y_run bc ec cap LInf g0 evs)) = [].
Proof.
  intros bc ec cap g0 evs. destruct (reach_run bc ec cap g0 LInf evs) as (_ & _ & _ & H). exact (H eq_refl).
Qed.

(* the RECEIVING session loses nothing that was transmitted before the sender closed: for an error-free stream, every
   schedule of its read / drain arms and every segmentation, once it has seen the EOF everything decoded from the whole
   stream has been handed to the socket's pipe (the read arm - and with it the EOF - is enabled only while
   ingress_buffer is empty) *)
Theorem C15_receiver_eof_loses_nothing : forall cfg t g0 input, has_err (snd (nets cfg g0 input)) = false ->
  forall es, let s := x_run gate_empty cfg (x_new t g0 input) es in
  x_dropped s = [] /\ (x_over s = true -> x_pipe s = deliveries (snd (nets cfg g0 input))).
Proof. exact rx_eof_loses_nothing. Qed.

(* non-vacuity: a schedule that satisfies the hypotheses of the `outside` theorem, shuts the write half
   and has transmitted two messages *)
Example C15_outside_nonvacuous :
  let evs := [YData (PSend ex_m2); YData (PSend ex_m3); YData PCycle; YData (PWrite 1000); YClose 5 5;
              YSessStop; YSessGone; YTick 105 105] in
  let s := y_run ex_bc ex_cfg 4 LInf ex_g0 evs in
  stop_after_linger ex_bc ex_cfg 4 (y_init LInf ex_g0) evs /\
  local_buffers_empty_at_stop ex_bc ex_cfg 4 (y_init LInf ex_g0) evs /\
  y_eof s = true /\ p_accepted (y_p s) = [ex_m2; ex_m3] /\ p_written (y_p s) = stream_of [ex_m2; ex_m3] /\
  c_ph (y_co s) = SFinished.
Proof. vm_compute. repeat split; try reflexivity; try lia; intros; try discriminate; repeat constructor. Qed.

(* ---- LINGER as the application sets it (option layer, Model/Options.v, tied to options.rs by the translator) ---- *)
From RZ Require Import Model.Options Proofs.OptionsProofs Proofs.OptionsCompose.
(* accepted iff a 4-byte integer v >= -1: -1 = wait for ever, 0 = discard at once, v = that many ms; a wrong length is
   refused under id 0, v < -1 under LINGER's id; nothing else changes *)
Theorem C15_linger_option_semantics : forall (o : opts) (b : bytes), (match apply_opt o LINGER b with | inl o' => exists v, i32_of b = Some v /\ -1 <= v /\ linger_of o' = timeo_decode v /\ oget o' F_linger = VOZ (if v =? -1 then None else Some v) /\ (forall g, g <> F_linger -> o' g = o g) | inr e => (e = EVal 0 /\ i32_of b = None) \/ (e = EVal LINGER /\ exists v, i32_of b = Some v /\ v < -1) end)%Z.
Proof.
  intros o b. pose proof (set_semantics linger_opt o b) as P. destruct (apply_opt o LINGER b) as [o'|e]; [|exact P].
  destruct P as (v & H1 & H2 & H3 & H4). exists v. unfold linger_of, oget. rewrite H3. repeat split; auto.
  apply as_timeo_off_at.
Qed.
Theorem C15_linger_option_get_after_set : forall (o : opts) (v : Z), (-1 <= v <= 2147483647)%Z -> exists o', apply_opt o LINGER (i32_bytes v) = inl o' /\ retrieve_opt o' LINGER = GOk (i32_bytes v).
Proof.
  intros o v H. apply (get_after_set linger_opt o v GMsSat eq_refl); try (unfold i32r; lia). now apply run_gk_mssat.
Qed.
(* composed with the coordinator: LINGER = 0 set through set_option ends the shutdown at once, LINGER = -1 keeps it
   lingering while a pipe still holds messages *)
Theorem C15_linger_option_zero_prompt : forall (o : opts) (now now' : N) (pe : bool), now <= now' -> exists o', apply_opt o LINGER (i32_bytes 0) = inl o' /\ c_ph (initiate (linger_cfg o') now now' pe coord0) = SFinished.
Proof.
  intros o now now' pe H. destruct (set_accepts linger_opt o 0) as (o' & Ha & Hl); [lia | unfold i32r; lia |].
  exists o'. split; [exact Ha|]. unfold linger_cfg, linger_of, oget. rewrite Hl. now apply coord_linger_zero_prompt.
Qed.
Theorem C15_linger_option_infinite_waits : forall (o : opts) (t0 t0' : N) (ts : list tick), Forall (fun tk => snd tk = false) ts -> exists o', apply_opt o LINGER (i32_bytes (-1)) = inl o' /\ c_ph (run_ticks (linger_cfg o') (initiate (linger_cfg o') t0 t0' false coord0) ts) = SLingering.
Proof.
  intros o t0 t0' ts H. destruct (set_accepts linger_opt o (-1)) as (o' & Ha & Hl); [lia | unfold i32r; lia |].
  exists o'. split; [exact Ha|]. unfold linger_cfg, linger_of, oget. rewrite Hl. now apply coord_infinite_linger_waits.
Qed.
