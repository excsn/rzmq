(* C17 - a connection's failure stays local; lost outbound connections are retried with a bounded,
   at most geometric back-off. The lemmas are in Proofs/BackoffProofs.v and Proofs/IsolationProofs.v.
   Durations are nanoseconds; DUR_MAX is the largest std::time::Duration. *)
From RZ Require Import Base.Prelude Model.Backoff Model.Isolation Proofs.BackoffProofs Proofs.IsolationProofs.
Local Open Scope N_scope.

(* ---------------- back-off arithmetic: ReconnectState::on_connection_failure ---------------- *)

(* the first delay is RECONNECT_IVL, cut by RECONNECT_IVL_MAX when that is set *)
Theorem C17_delay0 : forall base max, base <= DUR_MAX ->
  delay base max 0 = if 0 <? max then N.min base max else base.
Proof. exact delay0. Qed.

(* closed form for every attempt count: base * 2^min(attempts,31), cut at Duration::MAX and at max *)
Theorem C17_delay_closed_form : forall base max att,
  delay base max att =
    (if 0 <? max then N.min (N.min (base * 2 ^ N.min att 31) DUR_MAX) max
     else N.min (base * 2 ^ N.min att 31) DUR_MAX).
Proof. exact delay_unfold. Qed.

(* grows at most geometrically: each delay is at most twice the previous one ... *)
Theorem C17_delay_next_le_double : forall base max att,
  delay base max (att + 1) <= 2 * delay base max att.
Proof. exact delay_next_le_double. Qed.
(* ... also along the real (saturating) update of the u32 counter *)
Theorem C17_delay_next_le_double_sat : forall base max att,
  delay base max (u32_sat_add att 1) <= 2 * delay base max att.
Proof. intros. apply delay_sat_step. Qed.

(* never shrinks while failures continue *)
Theorem C17_delay_monotone : forall base max a b, a <= b -> delay base max a <= delay base max b.
Proof. exact delay_monotone. Qed.

(* never exceeds RECONNECT_IVL_MAX when that is set (max > 0), and never exceeds Duration::MAX *)
Theorem C17_delay_le_max : forall base max att, 0 < max -> delay base max att <= max.
Proof. exact delay_le_max. Qed.
Theorem C17_delay_le_durmax : forall base max att, delay base max att <= DUR_MAX.
Proof. exact delay_le_durmax. Qed.

(* never below the first delay: min base max when max is set, base otherwise *)
Theorem C17_delay_ge_base_or_max : forall base max att, base <= DUR_MAX ->
  (if 0 <? max then N.min base max else base) <= delay base max att.
Proof. exact delay_ge_base_or_max. Qed.

(* once the cap is reachable the delay sits exactly on it *)
Theorem C17_delay_reaches_max : forall base max att,
  0 < max -> max <= DUR_MAX -> max <= base * 2 ^ N.min att 31 -> delay base max att = max.
Proof.
  intros base max att H0 H1 H2. rewrite delay_unfold. unfold capped. rewrite (proj2 (N.ltb_lt 0 max) H0). lia.
Qed.

(* the multiplier 2u32.saturating_pow(attempts.min(31)) is an exact power of two that fits a u32
   for every attempt count (no saturation, no wrap), and saturating_pow is what its name says *)
Theorem C17_multiplier_never_overflows : forall att,
  sat_pow2_u32 (N.min att 31) = 2 ^ N.min att 31 /\
  1 <= sat_pow2_u32 (N.min att 31) /\ sat_pow2_u32 (N.min att 31) <= 2147483648 /\
  sat_pow2_u32 (N.min att 31) < U32MAX.
Proof.
  intros att. rewrite multiplier_exact. pose proof (pow2_le_31 _ (N.le_min_r att 31)).
  assert (2 ^ N.min att 31 <> 0) by (apply N.pow_nonzero; discriminate).
  unfold U32MAX. split; [reflexivity | lia].
Qed.
Theorem C17_saturating_pow_spec : forall e, sat_pow2_u32 e = N.min (2 ^ e) U32MAX.
Proof.
  intros e. unfold sat_pow2_u32, U32MAX. destruct (N.ltb_spec e 32) as [H|H].
  - pose proof (pow2_le_31 e). lia.
  - apply (N.pow_le_mono_r 2) in H; [|discriminate]. change (2 ^ 32) with 4294967296 in H. lia.
Qed.
(* Duration::saturating_mul on (secs, nanos), as std computes it, is min (d * m) Duration::MAX *)
Theorem C17_duration_saturating_mul : forall secs nanos rhs, nanos < NS ->
  dur_ns (std_dur_sat_mul secs nanos rhs) = dur_sat_mul (dur_ns (secs, nanos)) rhs.
Proof. intros secs nanos rhs _. apply std_dur_sat_mul_ns. Qed.

(* the attempt counter saturates at u32::MAX: never wraps, never decreases on failure *)
Theorem C17_attempts_saturate : forall base max now st d st',
  attempts st <= U32MAX -> on_failure base max now st = Done (d, st') ->
  attempts st' <= U32MAX /\ attempts st <= attempts st' /\
  (attempts st < U32MAX -> attempts st' = attempts st + 1).
Proof. exact attempts_saturate. Qed.

(* on_connection_failure returns exactly `delay`, schedules now + delay *)
Theorem C17_on_failure_spec : forall base max now st d st',
  on_failure base max now st = Done (d, st') ->
  d = delay base max (attempts st) /\ attempts st' = u32_sat_add (attempts st) 1 /\
  instant_add now d = next_at st' /\ next_at st' <> None.
Proof. exact on_failure_done. Qed.

(* on_connection_success resets: the next failure starts from the first delay again *)
Theorem C17_success_resets : forall base max now st,
  on_success st = rstate_default /\
  (base <= DUR_MAX ->
   forall d st', on_failure base max now (on_success st) = Done (d, st') ->
     d = (if 0 <? max then N.min base max else base) /\ attempts st' = 1).
Proof. exact success_resets. Qed.

(* `Instant::now() + delay` cannot panic for any interval the option parser can produce (i32 ms) *)
Theorem C17_no_panic_option_range : forall base max now st,
  base <= OPT_MAX_NS -> snd now < NS -> fst now < 4611686018427387904 ->
  exists st', on_failure base max now st = Done (delay base max (attempts st), st').
Proof.
  intros base max now st Hb Hn Hs. apply on_failure_no_panic; [exact Hn|].
  assert (delay base max (attempts st) / NS < 4611686018427387904).
  { apply N.div_lt_upper_bound; [discriminate|]. eapply N.le_lt_trans; [apply delay_le_shift|].
    eapply N.le_lt_trans; [apply N.mul_le_mono_r, Hb | reflexivity]. }
  unfold I64MAX. lia.
Qed.

(* whole histories of failures and successes *)
Theorem C17_failure_run : forall base max now k st ds st',
  run_ops base max now st (repeat OpFail k) = Done (ds, st') ->
  ds = fail_delays base max k (attempts st) /\ attempts st' = att_after k (attempts st).
Proof. exact run_fail_seq. Qed.
Theorem C17_failure_run_geometric : forall base max k a,
  chain (fun x y => x <= y /\ y <= 2 * x) (fail_delays base max k a).
Proof.
  intros base max k. induction k as [|k IH]; intros a; [exact I|]. specialize (IH (u32_sat_add a 1)).
  destruct k; [exact I|]. cbn [fail_delays chain] in *. split; [apply delay_sat_step | exact IH].
Qed.
Theorem C17_history_bounds : forall base max now ops, base <= DUR_MAX -> forall st ds st',
  run_ops base max now st ops = Done (ds, st') ->
  Forall (fun d => (if 0 <? max then N.min base max else base) <= d /\ d <= DUR_MAX /\ (0 < max -> d <= max)) ds
  /\ attempts st' = count_att (attempts st) ops.
Proof. exact run_ops_bounds. Qed.
Theorem C17_history_success_resets : forall base max now pre, base <= DUR_MAX -> forall st ds st',
  run_ops base max now st (pre ++ [OpSucc; OpFail]) = Done (ds, st') ->
  exists ds0, ds = ds0 ++ [if 0 <? max then N.min base max else base] /\ attempts st' = 1.
Proof. exact run_ops_after_success. Qed.

(* TcpConnecter's own retry loop (peer refuses connections): doubling capped by max *)
Theorem C17_connecter_next : forall base cur m c', 0 < cur -> 0 < m -> cur * 2 <= DUR_MAX ->
  conn_next base cur (Some m) = Some c' -> c' <= m /\ c' <= 2 * cur /\ (cur <= m -> cur <= c').
Proof. intros base cur m c' Hc Hm Hd H. rewrite conn_next_spec in H by assumption. injection H as <-. lia. Qed.
Theorem C17_connecter_initial : forall base m ia r, 0 < base -> base <= m -> m * 2 <= DUR_MAX ->
  conn_initial base (Some m) ia = Some r -> base <= r /\ r <= m.
Proof.
  intros base m ia r Hb Hm Hd H. unfold conn_initial in H.
  rewrite (proj2 (N.ltb_lt 0 base) Hb), (proj2 (N.ltb_lt 0 m)) in H by lia. apply conn_ff_bounds in H; lia.
Qed.
(* ... except that with RECONNECT_IVL > RECONNECT_IVL_MAX > 0 its first wait is RECONNECT_IVL *)
Theorem C17_connecter_first_wait_exceeds_max_refuted :
  exists base m, 0 < m /\ m < base /\ conn_initial base (Some m) 0 = Some base.
Proof. exists 200, 100. repeat split; reflexivity. Qed.

(* ---------------- isolation: the socket core's reaction to what happens on its connections ---------------- *)

(* the decision table: from Running, the socket leaves Running exactly on the inputs listed in keeps_running *)
Theorem C17_stays_running_iff : forall c s i, ph s = Running ->
  (ph (step c s i) = Running <-> keeps_running (inproc_names s) i = true).
Proof. exact stays_running_iff. Qed.

(* a failure on a connection - whatever the error class - tears down only that connection *)
Theorem C17_fault_is_local : forall c s is,
  ph s = Running -> Forall (fun i => is_conn_fault i = true) is ->
  ph (run c s is) = Running /\ inproc_names (run c s is) = inproc_names s /\
  forall e, In e (eps s) -> (forall i, In i is -> stopped_id i <> Some (e_id e)) -> In e (eps (run c s is)).
Proof. exact fault_is_local. Qed.

(* the same for every input sequence the code handles without Err (events of other sockets included) *)
Theorem C17_run_stays_running : forall c is s, ph s = Running ->
  Forall (fun i => keeps_running (inproc_names s) i = true) is ->
  ph (run c s is) = Running /\ inproc_names (run c s is) = inproc_names s.
Proof. exact run_stays_running. Qed.
Theorem C17_run_keeps_endpoint : forall c is s e, In e (eps s) ->
  (forall i, In i is -> stopped_id i <> Some (e_id e)) ->
  (forall i, In i is -> added_uri i <> Some (e_uri e)) ->
  In e (eps (run c s is)).
Proof. exact run_keeps_endpoint. Qed.

(* a lost outbound connection is scheduled for a retry after exactly the back-off delay *)
Theorem C17_reconnect_scheduled : forall c s child u e er,
  ph s = Running -> find_by_id child (eps s) = Some e -> e_kind e = Session -> e_outbound e = true ->
  ivl_positive c = true -> is_fatal_connect_error er = false ->
  let s' := step c s (EvActorStopping true child (Some u) (Some er)) in
  ph s' = Running /\
  recon_get u (recon s') = Some (u32_sat_add (attempts_of u s) 1, Some (delay (cfg_base c) (cfg_max c) (attempts_of u s))) /\
  (forall u', u' <> u -> recon_get u' (recon s') = recon_get u' (recon s)).
Proof. exact reconnect_scheduled. Qed.
Theorem C17_reconnect_scheduled_attempt : forall c s u er,
  ivl_positive c = true -> is_fatal_connect_error er = false ->
  let s' := step c s (EvConnAttemptFailed true u er) in
  ph s' = ph s /\ eps s' = eps s /\
  recon_get u (recon s') = Some (u32_sat_add (attempts_of u s) 1, Some (delay (cfg_base c) (cfg_max c) (attempts_of u s))).
Proof. exact reconnect_scheduled_attempt. Qed.
Theorem C17_handshake_resets_backoff : forall c s u v,
  ph s = Running -> recon_get u (recon s) = Some v ->
  recon_get u (recon (step c s (EvPeerIdentity true (Some u)))) = Some (0, None).
Proof.
  intros c s u v Hr Hg. unfold step. cbn [handle]. rewrite Hr. cbn [phase_eqb andb recon].
  unfold recon_success. rewrite Hg. apply recon_get_set.
Qed.

(* ... but only if the session was already registered: when its ActorStopping event overtakes its
   NewConnectionEstablished command, no retry is scheduled and the dead session stays registered *)
Theorem C17_reconnect_scheduled_refuted_stop_before_attach :
  let s := run demo_cfg demo_core [EvActorStopping true 200 (Some 300) (Some ErrClosed); CmdNewConnSca out_conn true] in
  ph s = Running /\ recon_get 300 (recon s) = None /\ In out_conn (eps s).
Proof. vm_compute. repeat split. left. reflexivity. Qed.
(* in the intended order the retry IS scheduled (first delay = RECONNECT_IVL) and the endpoint is gone *)
Theorem C17_reconnect_scheduled_in_order :
  let s := run demo_cfg demo_core [CmdNewConnSca out_conn true; EvActorStopping true 200 (Some 300) (Some ErrClosed)] in
  ph s = Running /\ recon_get 300 (recon s) = Some (1, Some 100000000) /\ eps s = eps demo_core.
Proof. vm_compute. repeat split. Qed.

(* where the code does NOT keep things local (witnesses on the faithful model) *)
(* an inproc connector of an incompatible socket type is refused through the reply channel and the
   BINDER keeps running (the code at the pinned commit returned the error into the binder's event
   loop and shut the binder down; repaired by a fix: commit) *)
Theorem C17_inproc_incompatible_stays_local :
  ph (step demo_cfg demo_core (EvInprocRequest 7 false false true bad_conn)) = Running.
Proof. reflexivity. Qed.
(* a lagging event-bus receiver (other sockets' event bursts) shuts the socket down *)
Theorem C17_fault_is_local_refuted_event_bus_lag : ph (step demo_cfg demo_core EvLagged) <> Running.
Proof. discriminate. Qed.
(* a session that is already gone when the core attaches its pipes shuts the socket down *)
Theorem C17_fault_is_local_refuted_dead_session_attach :
  ph (step demo_cfg demo_core (CmdNewConnSca bad_conn false)) <> Running.
Proof. discriminate. Qed.

(* non-vacuity: RECONNECT_IVL = 100 ms, RECONNECT_IVL_MAX = 400 ms; 100, 200, 400, 400 then a success and 100 again;
   and a protocol violation on an accepted connection leaves listener and healthy session in place *)
Example C17_example :
  run_ops 100000000 400000000 (1000, 0) rstate_default [OpFail; OpFail; OpFail; OpFail; OpSucc; OpFail]
    = Done ([100000000; 200000000; 400000000; 400000000; 100000000], {| attempts := 1; next_at := Some (1000, 100000000) |})
  /\ delay 100000000 0 40 = 100000000 * 2147483648
  /\ delay DUR_MAX 0 4294967295 = DUR_MAX
  /\ (let s := run demo_cfg demo_core [CmdNewConnSca bad_conn true; EvActorStopping true 9 (Some 900) (Some ErrProtocol)] in
      ph s = Running /\ eps s = eps demo_core)
  /\ is_conn_fault (EvActorStopping true 9 (Some 900) (Some ErrProtocol)) = true.
Proof. vm_compute. repeat split. Qed.

(* ---- RECONNECT_IVL / RECONNECT_IVL_MAX as the application sets them (option layer, Model/Options.v) ---- *)
From RZ Require Import Model.Options Proofs.OptionsProofs Proofs.OptionsCompose.
Theorem C17_reconnect_option_semantics : forall (o : opts) (b : bytes), (match apply_opt o RECONNECT_IVL b with | inl o' => exists v, i32_of b = Some v /\ -1 <= v /\ reconnect_ivl_of o' = (if (v =? -1) || (v =? 0) then None else Some (Z.to_N v)) /\ (forall g, g <> F_reconnect_ivl -> o' g = o g) | inr e => (e = EVal 0 /\ i32_of b = None) \/ (e = EVal RECONNECT_IVL /\ exists v, i32_of b = Some v /\ v < -1) end)%Z /\ (match apply_opt o RECONNECT_IVL_MAX b with | inl o' => exists v, i32_of b = Some v /\ 0 <= v /\ reconnect_ivl_max_of o' = Some (Z.to_N v) /\ (forall g, g <> F_reconnect_ivl_max -> o' g = o g) | inr e => (e = EVal 0 /\ i32_of b = None) \/ (e = EVal RECONNECT_IVL_MAX /\ exists v, i32_of b = Some v /\ v < 0) end)%Z.
Proof.
  intros o b. split.
  - pose proof (set_semantics reconnect_ivl_opt o b) as P. destruct (apply_opt o RECONNECT_IVL b) as [o'|e]; [|exact P].
    destruct P as (v & H1 & H2 & H3 & H4). exists v. unfold reconnect_ivl_of, oget. rewrite H3. repeat split; auto.
    now destruct ((v =? -1) || (v =? 0))%Z.
  - pose proof (set_semantics reconnect_ivl_max_opt o b) as P. destruct (apply_opt o RECONNECT_IVL_MAX b) as [o'|e]; [|exact P].
    destruct P as (v & H1 & H2 & H3 & H4). exists v. unfold reconnect_ivl_max_of, oget. rewrite H3. repeat split; auto.
Qed.
Theorem C17_reconnect_max_option_caps : forall (o : opts) (m : Z) (base att : N), (0 < m <= 2147483647)%Z -> exists o', apply_opt o RECONNECT_IVL_MAX (i32_bytes m) = inl o' /\ reconnect_ivl_max_of o' = Some (Z.to_N m) /\ delay base (Z.to_N m * 1000000) att <= Z.to_N m * 1000000.
Proof.
  intros o m base att H. destruct (set_accepts reconnect_ivl_max_opt o m) as (o' & Ha & Hl); [lia | unfold i32r; lia |].
  exists o'. split; [exact Ha|]. unfold reconnect_ivl_max_of, oget. rewrite Hl. split; [reflexivity|].
  apply delay_le_max. lia.
Qed.
