(* C09 - dropping the future of send(), recv(), send_multipart() or recv_multipart() at any await
   point.

   Model/Cancel.v: every public operation of the eight socket types as a program of atomic steps and
   await points placed as in core/src/socket/*_socket.rs (+ patterns/, sessionx/iface.rs), one
   application task per socket; the world (peer reads / peer sends / peer attaches / DEALER's
   processor / a timer firing) acts between polls; `Cancel` drops the parked future and runs the RAII
   it owns.  A statement below quantifies over EVERY configuration (pipe capacities, time-outs,
   ROUTER_MANDATORY, PUB peer order), every initial protocol state with no operation in flight
   (`quiet`), every operation, and every sequence `es` of world events and polls (`bg es`) after
   which the future is still parked - i.e. every cancellation point reachable in the model.
   `glue p` is the protocol state after the drop.

   What holds for all sockets (proved): outside four classes a drop is INVISIBLE (C09_cancel_is_noop);
   a dropped or failed one-entry send has committed nothing, a returned one nothing or the whole
   message as ONE pipe entry (C09_all_or_nothing, C09_returns_all_or_nothing); a dropped receive
   takes nothing and the queue keeps arrival order for every history (C09_recv_cancel_keeps_message,
   C09_queue_exactly_once); REQ state / ROUTER target / send permit / receive buffer are exactly as
   before the dropped call (C09_socket_states).
   Where the statement FAILS (witnesses, all reproduced on the real code by the check):
   frame-by-frame ROUTER send (identity frame left alone on the pipe; unterminated message after a
   time-out), DEALER last part (buffered parts silently dropped), REP reply (envelope consumed before
   the awaited push: the reply cannot be retried), REQ recv time-out (request forgotten).
   The ready-pipe-queue facts the one-await model of pop() and of the blocking pipe send rest on
   are C08's theorems, re-exported at the end. *)
From RZ Require Import Base.Prelude Model.Rpq Proofs.RpqProofs Model.Cancel Proofs.CancelProofs.
Local Open Scope N_scope.

(* ---- drops that leave no trace ---- *)
Theorem C09_cancel_is_noop : forall c t o p0 e0 es q p e,
  quiet p0 -> plain t o p0 = true -> bg es ->
  run c t (Call o :: es) (TIdle, p0, e0) = (TPark q, p, e) ->
  core (glue p) = core p0.
Proof. exact cancel_is_noop. Qed.

(* ---- protocol state after a drop, every socket type, every operation, every cancellation point ---- *)
Theorem C09_socket_states : forall c t o p0 e0 es q p e,
  quiet p0 -> bg es ->
  run c t (Call o :: es) (TIdle, p0, e0) = (TPark q, p, e) ->
  p_req (glue p) = p_req p0 /\ p_rtgt (glue p) = p_rtgt p0 /\ p_perm (glue p) = p_perm p0 /\
  quiet (glue p) /\ p_buf (glue p) = p_buf p0 /\
  (rep_send t o = false -> p_rep (glue p) = p_rep p0) /\
  (p_dtx (glue p) = p_dtx p0 \/ (t = DEALER /\ (exists tag, o = OSend (tag, false)) /\ p_dtx (glue p) = None)).
Proof.
  intros c t o p0 e0 es q p e [Q1 Q2] B R.
  destruct (parked_shape c t o p0 e0 es q p e B R) as [|T P|f' T O RT P|T S|T S|S|tag T O]; clear R; subst;
    unfold quiet, glue; simpl; rewrite ?Q1; simpl; repeat split; auto; try congruence.
  right. eauto.
Qed.

(* hence every call the socket's state check let in before the dropped call, it lets in afterwards
   (REQ, REP outside its own send, DEALER, ROUTER: the call can be retried / the next call made) *)
Theorem C09_accepts_next : forall c t o o' p0 e0 es q p e,
  quiet p0 -> bg es -> rep_send t o = false ->
  run c t (Call o :: es) (TIdle, p0, e0) = (TPark q, p, e) ->
  accepts t o' (glue p) = accepts t o' p0.
Proof.
  intros c t o o' p0 e0 es q p e Q B RS R.
  destruct (C09_socket_states c t o p0 e0 es q p e Q B R) as (A1 & _ & _ & _ & _ & A6 & _).
  specialize (A6 RS). unfold accepts. destruct t, o'; try reflexivity; rewrite ?A1, ?A6; reflexivity.
Qed.

(* ---- a dropped send-type call: nothing of it on any pipe; PUB: the whole message, as one pipe
        entry, on the pipes of the subscribers served so far ---- *)
Theorem C09_all_or_nothing : forall c t o p0 e0 es q p e,
  quiet p0 -> ident_part t o p0 = false -> bg es ->
  run c t (Call o :: es) (TIdle, p0, e0) = (TPark q, p, e) ->
  (p_pushed (glue p) = p_pushed p0 \/ (t = PUB /\ p_pushed (glue p) = p_pushed p0 ++ [pub_item o])) /\
  (p_pushed2 (glue p) = p_pushed2 p0 \/ (t = PUB /\ p_pushed2 (glue p) = p_pushed2 p0 ++ [pub_item o])).
Proof.
  intros c t o p0 e0 es q p e [Q1 Q2] NI B R.
  destruct (parked_shape c t o p0 e0 es q p e B R) as [|T P|f' T O RT P|T S|T S|S|tag T O]; clear R; subst;
    unfold glue; simpl in *; rewrite ?Q1; simpl; auto.
  rewrite RT in NI. discriminate NI.
Qed.

(* ---- a one-entry send call that returns - Ok, an error, or the internal time-out that drops the
        inner send future: all (one pipe entry) or nothing; an error means nothing ---- *)
Theorem C09_returns_all_or_nothing : forall c t o it p0 e0 es p e,
  quiet p0 -> wire_item t o p0 = Some it -> bg es ->
  run c t (Call o :: es) (TIdle, p0, e0) = (TIdle, p, e) ->
  exists x pp, p = finish x pp /\
    (p_pushed (glue pp) = p_pushed p0 \/ p_pushed (glue pp) = p_pushed p0 ++ [it]) /\
    (x <> 1 -> p_pushed (glue pp) = p_pushed p0) /\
    ((t <> ROUTER \/ mand c = true) -> x = 1 -> p_pushed (glue pp) = p_pushed p0 ++ [it]) /\
    p_perm (glue pp) = p_perm p0 /\ p_rtgt (glue pp) = p_rtgt p0 /\ quiet (glue pp).
Proof.
  intros c t o it p0 e0 es p e Q W B R.
  pose proof (call_covered _ _ c t o p0 e0 es (program_done c t o it p0 e0 Q W) B) as H.
  rewrite R in H. exact H.
Qed.

(* ---- a dropped recv()/recv_multipart(): nothing taken, nothing delivered, buffer untouched, the
        queue holds what it held plus what arrived meanwhile ---- *)
Theorem C09_recv_cancel_keeps_message : forall c t o p0 e0 es q p e,
  (o = ORecv \/ o = ORecvMp) -> quiet p0 -> p_taken p0 ++ e_in e0 = e_arrived e0 -> bg es ->
  run c t (Call o :: es) (TIdle, p0, e0) = (TPark q, p, e) ->
  p_taken (glue p) = p_taken p0 /\ p_buf (glue p) = p_buf p0 /\ p_app (glue p) = p_app p0 /\
  p_reg (glue p) = None /\
  exists l, e_in e = e_in e0 ++ l /\ e_arrived e = e_arrived e0 ++ l.
Proof. exact recv_cancel_keeps_message. Qed.

(* ---- a recv()/recv_multipart() that returns an ERROR - the state check, or RCVTIMEO, which drops the
        inner pop() future - has taken nothing, delivered nothing, left buffer and REP state alone; the one
        state change is REQ forgetting its outstanding request on a time-out (recorded finding) ---- *)
Theorem C09_recv_error_takes_nothing : forall c t o p0 e0 es p e,
  (o = ORecv \/ o = ORecvMp) -> quiet p0 -> bg es ->
  run c t (Call o :: es) (TIdle, p0, e0) = (TIdle, p, e) ->
  exists x pp, p = finish x pp /\
    (x <> 1 ->
     p_taken (glue pp) = p_taken p0 /\ p_app (glue pp) = p_app p0 /\ p_buf (glue pp) = p_buf p0 /\
     p_rep (glue pp) = p_rep p0 /\ p_pushed (glue pp) = p_pushed p0 /\
     (p_req (glue pp) = p_req p0 \/ (t = REQ /\ rcvto c = true /\ x = 2 /\ p_req p0 = true /\ p_req (glue pp) = false))).
Proof.
  intros c t o p0 e0 es p e O Q B R.
  pose proof (call_covered _ _ c t o p0 e0 es (program_recv_err c t o p0 e0 O Q) B) as H.
  rewrite R in H. exact H.
Qed.

(* ---- for EVERY history of calls, polls, drops, time-outs and peer traffic (no restriction on es):
        taken batches ++ queued batches = arrived batches, in arrival order: nothing lost, nothing
        twice, whatever is dropped when ---- *)
Theorem C09_queue_exactly_once : forall c t es s, qinv s -> qinv (run c t es s).
Proof. exact queue_exactly_once. Qed.

(* ---- frame-by-frame ROUTER send, identity part: exactly what can be left behind ---- *)
Theorem C09_router_ident_outside : forall c f p0 e0 es q p e,
  quiet p0 -> p_rtgt p0 = false -> bg es ->
  run c ROUTER (Call (OSend f) :: es) (TIdle, p0, e0) = (TPark q, p, e) ->
  (p_pushed (glue p) = p_pushed p0 \/ p_pushed (glue p) = p_pushed p0 ++ [[(IDENT, true)]]) /\
  p_rtgt (glue p) = false /\ p_perm (glue p) = p_perm p0 /\ quiet (glue p).
Proof.
  intros c f p0 e0 es q p e [Q1 Q2] NT B R.
  destruct (parked_shape c ROUTER (OSend f) p0 e0 es q p e B R) as [|T P|f' T O RT P|T S|T S|S|tag T O]; clear R;
    try discriminate; unfold quiet, glue; simpl; rewrite ?Q1; simpl; auto.
Qed.

(* KNOWN FINDING C09-router-partwise-send-not-atomic *)
Theorem C09_router_ident_cancel_refuted : exists c q p e,
  run c ROUTER [Call (OSend (IDENT, true))] st0 = (TPark q, p, e) /\
  p_pushed (glue p) = [[(IDENT, true)]] /\
  wire_msgs (p_pushed (pr (run c ROUTER [Cancel; Drain 0; Call (OSendMp [IDENT; tg 101 0 1])] (TPark q, p, e)))) =
    [[(IDENT, true); (IDENT, true); (DELIM, true); (tg 101 0 1, false)]].
Proof. exists (cfg1 true false). eexists. eexists. eexists. vm_compute. repeat split; reflexivity. Qed.

Theorem C09_router_ident_timeout_refuted : exists c,
  let s := run c ROUTER [Call (OSend (IDENT, true)); Tmo] st0 in
  fst (fst s) = TIdle /\ p_rets (pr s) = [1] /\ p_pushed (pr s) = [[(IDENT, true)]] /\ p_rtgt (pr s) = false /\
  wire_tail (p_pushed (pr s)) = true.
Proof. exists (cfg1 false true). vm_compute. repeat split; reflexivity. Qed.

Theorem C09_router_part_timeout_refuted : exists c,
  let s := run c ROUTER [Call (OSend (IDENT, true)); Drain 0; Poll; Call (OSend (tg 100 0 1, false)); Tmo] st0 in
  fst (fst s) = TIdle /\ p_rets (pr s) = [1; 2] /\ p_rtgt (pr s) = false /\ p_perm (pr s) = false /\
  wire_tail (p_pushed (pr s)) = true.
Proof. exists (cfg1 true true). vm_compute. repeat split; reflexivity. Qed.

(* KNOWN FINDING C09-dealer-last-part-failure-drops-buffered-parts *)
Theorem C09_dealer_parts_cancel_refuted : exists c,
  let s := run c DEALER [Call (OSendMp [tg 1 0 1]); Call (OSend (tg 100 0 3, true)); Call (OSend (tg 100 1 3, true));
                         Call (OSend (tg 100 2 3, false)); Cancel; Drain 0; Call (OSend (tg 100 2 3, false))] st0 in
  p_rets (pr s) = [1; 1; 1; 0; 1] /\ p_dtx (pr s) = None /\
  wire_msgs (p_pushed (pr s)) = [[(DELIM, true); (tg 1 0 1, false)]; [(DELIM, true); (tg 100 2 3, false)]].
Proof. exists (cfg1 true false). vm_compute. repeat split; reflexivity. Qed.

(* KNOWN FINDING C09-rep-failed-reply-not-retryable *)
Theorem C09_rep_send_cancel_refuted : exists c s0,
  accepts REP (OSendMp [tg 200 0 1]) (pr s0) = true /\
  let s := run c REP [Call (OSendMp [tg 200 0 1]); Cancel; Call (OSendMp [tg 200 0 1])] s0 in
  p_rets (pr s) = [0; 3] /\ p_pushed (pr s) = [] /\ accepts REP (OSendMp [tg 200 0 1]) (pr s) = false.
Proof.
  exists (cfg1 true false), (TIdle, set_rep (Some [(DELIM, true)]) p0, mkE [[(7, false)]] [] [] [] [] true).
  vm_compute. repeat split; reflexivity.
Qed.

(* KNOWN FINDING C09-req-recv-timeout-resets-state *)
Theorem C09_req_recv_timeout_refuted : exists c,
  let s := run c REQ [Call (OSend (tg 150 0 1, false)); Call ORecv; Tmo; Call ORecv] st0 in
  p_rets (pr s) = [1; 2; 3] /\ p_pushed (pr s) = [[(DELIM, true); (tg 150 0 1, false)]] /\ p_taken (pr s) = [] /\
  accepts REQ ORecv (pr s) = false.
Proof. exists (cfg1 true true). vm_compute. repeat split; reflexivity. Qed.

(* ---- DEALER shared by two tasks: B's send_multipart() waits for A's part-wise transaction on the
        transaction's completion_notifier.  As long as no last part is dropped, somebody owes B the
        notification and A finishing its message delivers it ... ---- *)
Theorem C09_dealer_waiter_owed : forall es s, dwinv s -> no_drop es = true -> dwinv (dwrun es s).
Proof.
  unfold dwrun. induction es as [|x es IH]; intros s I ND; simpl; [exact I|].
  simpl in ND. apply andb_true_iff in ND. destruct ND as [N1 N2].
  apply IH; [|exact N2]. apply dwstep_inv; [intros ->; discriminate N1|exact I].
Qed.

Theorem C09_dealer_waiter_served : forall s k, dwinv s -> w_wait s = Some k ->
  exists es, no_drop es = true /\ (forall x, In x es -> x = DLast \/ x = DLastDone) /\
             w_woken (dwrun es s) = true.
Proof. exact dealer_waiter_served. Qed.

(* KNOWN FINDING C09-dealer-dropped-last-part-strands-waiter: ... a dropped last part never notifies:
   the transaction is over, and B stays parked whatever happens afterwards *)
Theorem C09_dealer_waiter_refuted :
  w_tx dw_bad = None /\ w_last dw_bad = None /\
  forall es, w_wait (dwrun es dw_bad) = Some 0%nat /\ w_woken (dwrun es dw_bad) = false /\ w_done (dwrun es dw_bad) = false.
Proof.
  split; [reflexivity|]. split; [reflexivity|]. intros es.
  apply (dw_stranded 0 es None 1 None); [lia|intros j [=]|intros j [=]].
Qed.

(* ---- the ready-pipe-queue facts this model leans on (C08, Model/Rpq.v): only a blocked channel
        write and a wait on the empty ready list can be cancelled, with the reservation returned and
        nothing else touched; a consumer that has taken a ready entry cannot be cancelled until it
        returns its item ---- *)
Theorem C09_rpq_cancel_safe : forall c s e s', (np c <= rcap c)%nat -> reach c s ->
  (exists t, e = CancelP t \/ e = CancelC t) -> Rpq.step c s e = Some s' ->
  RpqInv c s' /\ Rpq.ready s' = Rpq.ready s /\ taken s' = taken s /\
  (forall q, chan s' q = chan s q /\ queued s' q = queued s q /\ pushed s' q = pushed s q) /\
  match e with
  | CancelP p => (exists x, prod s p = SBlock x true) /\ prod s' p = PIdle /\
                 reserved s' p = (reserved s p - 1)%Z /\ (forall q, q <> p -> reserved s' q = reserved s q) /\
                 reserved s' p = (queued s' p + csum (c_c3 p) (cons s') (nc c))%Z
  | CancelC i => cons s i = CWait /\ cons s' i = CIdle /\ forall q, reserved s' q = reserved s q
  | _ => True
  end.
Proof. exact rpq_cancel_safe. Qed.

Theorem C09_rpq_taken_is_returned : forall c s i, (np c <= rcap c)%nat -> reach c s -> (i < nc c)%nat ->
  c_midop (cons s i) = true -> ccancel s i = None /\ exists s', Rpq.step c s (RunC i) = Some s'.
Proof. exact rpq_taken_is_returned. Qed.

(* non-vacuity: a PUSH send_multipart parked on the full capacity-1 pipe is dropped; the peer reads;
   the next message goes out: the peer has seen the prefill message and the next one, whole, and no
   frame of the dropped one *)
Example C09_example :
  let c := cfg1 true false in
  let s1 := run c PUSH [Call (OSendMp [tg 1 0 2; tg 1 1 2]); Call (OSendMp [tg 100 0 3; tg 100 1 3; tg 100 2 3])] st0 in
  (exists q, fst (fst s1) = TPark q) /\
  let s2 := run c PUSH [Cancel; Drain 0; Call (OSendMp [tg 101 0 1])] s1 in
  p_rets (pr s2) = [1; 0; 1] /\ map (map fst) (wire_msgs (p_pushed (pr s2))) = [[tg 1 0 2; tg 1 1 2]; [tg 101 0 1]].
Proof. vm_compute. split; [eexists; reflexivity|split; reflexivity]. Qed.
