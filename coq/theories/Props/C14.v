(* C14 - High-water marks bound buffering; SNDTIMEO / RCVTIMEO mean what they say.
   The model is Model/Hwm.v (+ C01's Batch/Egress/IngressDriver/Pipeline, Inproc, Dealer); the tables
   of what each send / recv method does and the buffer invariants are in Proofs/HwmProofs.v, what a
   step of DEALER's queue does in Proofs/DealerProofs.v, the meaning of a set_option rule in
   Proofs/OptionsProofs.v.

   Clock: milliseconds from the start of the call. `fire d` is the instant a tokio timer armed for
   d ms fires; the only thing assumed about it is the timer law  d <= fire d <= d + slack.
   What the bounded pipe does while a call waits is the oracle `waitres` (room after t / the
   receiver dropped after t / nothing ever): the theorems quantify over all of it.

   Genuine defects recorded by `_refuted` theorems (the property is proved outside the class):
     SNDTIMEO = -1 is a 30 s wait then ResourceLimitReached in ScaConnectionIface::send_message /
     send_multipart (ROUTER, REQ, REP, PUB, XPUB ... over tcp/ipc), a 300 s wait then Timeout in
     DirectInprocConnection (every socket type over inproc), 30 s in ZmtpSmartConnection
     (io_uring); only ScaConnectionIface::send_multipart_owned (PUSH, DEALER over tcp/ipc) waits. *)
From RZ Require Import Base.Prelude Model.Batch Model.Egress Model.Engine Model.IngressDriver Model.Pipeline Model.Inproc Model.Dealer Model.Hwm.
From RZ Require Import Proofs.DealerProofs Proofs.HwmProofs.
Local Open Scope N_scope.

(* ---- send, SNDTIMEO = 0: at the high-water mark every one of the twelve send methods answers
   would-block, at time 0, with the pipe untouched; the `_owned`/`_sync` methods hand the message
   back, the plain ones consume it ---- *)
Theorem C14_snd0_immediate : forall (fire : N -> N) (M : Type) (v : variant) (cap len : nat) (w : waitres) (q : list M) (m : M), (cap <= len)%nat -> let o := send_path fire v (try_of cap len false) (Some 0) w in (exists f : fate, o = Ret AWouldBlock 0 f /\ f <> Enqueued /\ (f = Returned <-> can_return v = true)) /\ after_send q m o = q.
Proof.
  intros fire M v cap len w q m Hl. cbv zeta. rewrite (try_of_full _ _ Hl), send_path_table. cbn [is_zero]. rewrite orb_true_r.
  destruct (can_return v); (split; [eexists; split; [reflexivity|]; split; [discriminate | split; congruence] | reflexivity]).
Qed.

(* ---- send, SNDTIMEO = d > 0 on a full pipe, every waiting method, every oracle: the call
   returns; Ok only because room came (by d + slack); a closed pipe is reported as such; otherwise
   the error is Timeout or would-block (which of the two: `expiry_answer`), no earlier than d and
   no later than d + slack, and the message is not on the pipe ---- *)
Theorem C14_snd_positive_not_early : forall (fire : N -> N) (slack : N), (forall d : N, d <= fire d /\ fire d <= d + slack) -> forall (v : variant) (d : N) (w : waitres), is_sync v = false -> 0 < d -> positive_spec slack v d w (send_path fire v TsFull (Some d) w).
Proof. exact snd_positive_all. Qed.

(* ---- send, SNDTIMEO = -1 ---- *)
(* ScaConnectionIface::send_multipart_owned never fails while the peer may still drain *)
Theorem C14_snd_minus1_waits : forall fire : N -> N, minus1_spec fire VScaOwned.
Proof. intros fire w Hw. cbn. destruct w; auto. elim (Hw t). reflexivity. Qed.
(* every other waiting method gives up after its fall-back (30 s / 300 s / 30 s) with the peer alive *)
Theorem C14_snd_minus1_waits_refuted : forall (fire : N -> N) (slack : N), (forall d : N, d <= fire d /\ fire d <= d + slack) -> forall v : variant, is_sync v = false -> v <> VScaOwned -> exists (F : N) (w : waitres), fallback v = Some F /\ (forall t : N, w <> WClosed t) /\ send_path fire v TsFull None w = Ret (expiry_answer v) (fire F) Dropped /\ expiry_answer v <> AOk.
Proof. intros fire slack _. exact (snd_minus1_fallback_refuted fire). Qed.
Theorem C14_snd_minus1_spec_refuted : forall (fire : N -> N) (slack : N), (forall d : N, d <= fire d /\ fire d <= d + slack) -> forall v : variant, is_sync v = false -> v <> VScaOwned -> ~ minus1_spec fire v.
Proof.
  intros fire slack _ v Hs Hv Hm. destruct (snd_minus1_fallback_refuted fire v Hs Hv) as (F & w & _ & Hw & E & Hne).
  specialize (Hm w Hw). rewrite E in Hm. contradiction.
Qed.
(* outside the failing class: room within the fall-back => Ok at that moment; and nothing fails
   before the fall-back has run out *)
Theorem C14_snd_minus1_outside : forall (fire : N -> N) (slack : N), (forall d : N, d <= fire d /\ fire d <= d + slack) -> forall (v : variant) (F t : N), is_sync v = false -> fallback v = Some F -> t <= F -> send_path fire v TsFull None (WRoom t) = Ret AOk t Enqueued.
Proof.
  intros fire slack Hf v F t Hs HF Ht. rewrite (minus1_path_fallback fire v F) by assumption.
  apply timed_wait_room. pose proof (Hf F). lia.
Qed.
Theorem C14_snd_minus1_not_before_fallback : forall (fire : N -> N) (slack : N), (forall d : N, d <= fire d /\ fire d <= d + slack) -> forall (v : variant) (F : N) (w : waitres) (a : answer) (t : N) (f : fate), is_sync v = false -> fallback v = Some F -> send_path fire v TsFull None w = Ret a t f -> a <> AOk -> a <> AClosed -> F <= t /\ t <= F + slack.
Proof.
  intros fire slack Hf v F w a t f Hs HF E Ha Hc. rewrite (minus1_path_fallback fire v F) in E by assumption.
  pose proof (timed_wait_spec fire slack Hf v F w) as P. rewrite E in P. destruct a; cbn in P; tauto.
Qed.

(* ---- send: no spurious success, nothing half-done; for EVERY method, pipe state, SNDTIMEO and
   oracle: Ok <=> the message is on the pipe (once); Err => it is not; it is handed back exactly
   by the `_owned`/`_sync` methods when the refusal is immediate, consumed otherwise; only
   send_multipart_owned with -1 on a pipe that never drains does not return ---- *)
Theorem C14_no_spurious_success : forall (fire : N -> N) (slack : N), (forall d : N, d <= fire d /\ fire d <= d + slack) -> forall (v : variant) (ts : trysend) (s : timeo) (w : waitres), no_spurious_spec v ts s w (send_path fire v ts s w).
Proof. intros fire slack _. exact (no_spurious_all fire). Qed.
Theorem C14_enqueued_exactly_once : forall (fire : N -> N) (slack : N), (forall d : N, d <= fire d /\ fire d <= d + slack) -> forall (M : Type) (v : variant) (ts : trysend) (s : timeo) (w : waitres) (q : list M) (m : M), after_send q m (send_path fire v ts s w) = match send_path fire v ts s w with Ret AOk _ _ => q ++ [m] | _ => q end.
Proof.
  intros fire slack _ M v ts s w q m. pose proof (no_spurious_all fire v ts s w) as H.
  destruct (send_path fire v ts s w) as [[] t []|]; cbn in *; try reflexivity; destruct H as [H _]; congruence.
Qed.

(* ---- the socket-level wrappers: PUSH (second timer around the routing), DEALER (pending queue) ---- *)
Theorem C14_push_snd0_immediate : forall (fire fire_o : N -> N) (i : iface) (w : waitres), push_full fire fire_o i (Some 0) w = Ret AWouldBlock 0 Dropped.
Proof. intros fire fire_o i w. destruct i; reflexivity. Qed.
Theorem C14_push_positive : forall (fire : N -> N) (slack : N), (forall d : N, d <= fire d /\ fire d <= d + slack) -> forall fire_o : N -> N, (forall d : N, d <= fire_o d /\ fire_o d <= d + slack) -> forall (i : iface) (d : N) (w : waitres), 0 < d -> match push_full fire fire_o i (Some d) w with | Hang => False | Ret AOk t f => f = Enqueued /\ w = WRoom t /\ t <= d + slack | Ret AClosed t f => f = Dropped /\ w = WClosed t /\ t <= d + slack | Ret a t f => a = ATimeout /\ f = Dropped /\ d <= t /\ t <= d + slack end.
Proof.
  intros fire slack Hf fire_o Hfo i d w Hd. unfold push_full, push_send. destruct (N.eqb_spec d 0); [lia|].
  rewrite route_full_owned. pose proof (owned_positive fire slack Hf i d w Hd) as P. pose proof (Hfo d).
  (* an answer of the routing that comes by fire_o d is passed on; otherwise PUSH's own timer answers
     Timeout at fire_o d, which lies in the window as well *)
  destruct (send_path fire (owned_variant i) TsFull (Some d) w) as [[] t f|].
  - (* Ok *)
    destruct P as (-> & -> & Ht). destruct (N.leb_spec t (fire_o d)); cbn; repeat split; auto; lia.
  - (* would-block: no `_owned` method answers it after a wait *)
    destruct P as [[=] _].
  - (* Timeout *)
    destruct P as (_ & -> & Hlo & Hhi). destruct (N.leb_spec t (fire_o d)); cbn; repeat split; auto; lia.
  - (* Closed *)
    destruct P as (-> & -> & Ht). destruct (N.leb_spec t (fire_o d)); cbn; repeat split; auto; lia.
  - (* the routing does not hang with a positive SNDTIMEO *)
    contradiction.
Qed.
Theorem C14_push_minus1_waits : forall (fire fire_o : N -> N) (w : waitres), push_full fire fire_o ISca None w = match w with WRoom t => Ret AOk t Enqueued | WClosed t => Ret AClosed t Dropped | WNever => Hang end.
Proof. intros fire fire_o w. destruct w; reflexivity. Qed.
Theorem C14_push_minus1_waits_refuted : forall (fire : N -> N) (slack : N), (forall d : N, d <= fire d /\ fire d <= d + slack) -> forall fire_o : N -> N, (forall d : N, d <= fire_o d /\ fire_o d <= d + slack) -> forall i : iface, i <> ISca -> exists (F : N) (w : waitres), (forall t : N, w <> WClosed t) /\ push_full fire fire_o i None w = Ret ATimeout (fire F) Dropped /\ (F = INPROC_FALLBACK_MS \/ F = URING_FALLBACK_MS).
Proof.
  intros fire slack _ fire_o _ i Hi.
  destruct (snd_minus1_fallback_refuted fire (owned_variant i)) as (F & w & HF & Hw & E & _);
    [destruct i; reflexivity | destruct i; cbn; congruence |].
  exists F, w. split; [exact Hw|]. split.
  - unfold push_full, push_send. rewrite route_full_owned, E. destruct i; reflexivity.
  - destruct i; [congruence | left | right]; inversion HF; reflexivity.
Qed.
(* SNDTIMEO is snapshotted by the connection object when the connection is made: a value set later
   is honoured by PUSH's / DEALER's own wrapper only. Connected with -1 and then set to 0, PUSH's
   send() on a full tcp/ipc pipe never returns; connected with 0 and then set to anything else it is
   still refused at once. With the same value at both times this is C14_push_* above. *)
Theorem C14_sndtimeo_set_after_connect_refuted : forall fire fire_o : N -> N, push_late fire fire_o ISca None (Some 0) WNever = Hang.
Proof. reflexivity. Qed.
Theorem C14_sndtimeo_set_after_connect_refuted_2 : forall (fire fire_o : N -> N) (i : iface) (s_now : timeo) (w : waitres), s_now <> Some 0 -> exists a : fate, push_late fire fire_o i (Some 0) s_now w = Ret AWouldBlock 0 a.
Proof.
  intros fire fire_o i s_now w Hs. unfold push_late, push_send. rewrite route_full_snd0.
  destruct s_now as [d|]; [|eexists; reflexivity].
  destruct (N.eqb_spec d 0); [subst; congruence|].
  destruct (N.leb_spec 0 (fire_o d)); [|lia]. eexists. reflexivity.
Qed.
Theorem C14_sndtimeo_same_value : forall (fire fire_o : N -> N) (i : iface) (s : timeo) (w : waitres), push_late fire fire_o i s s w = push_full fire fire_o i s w.
Proof. reflexivity. Qed.
Theorem C14_dealer_snd0 : forall (fire : N -> N) (i : iface) (hwm pend : nat) (wakes : list (N * nat)) (w : waitres), dealer_send fire (route_full fire i (Some 0) w) hwm (Some 0) pend wakes = (if (pend <? hwm)%nat then Ret AOk 0 Enqueued else Ret AWouldBlock 0 Dropped).
Proof.
  intros fire i hwm pend wakes w. rewrite route_full_snd0. cbn [dealer_send].
  destruct wakes; cbn; destruct (pend <? hwm)%nat; reflexivity.
Qed.
Theorem C14_dealer_positive : forall (fire : N -> N) (slack : N), (forall d : N, d <= fire d /\ fire d <= d + slack) -> forall (i : iface) (d : N) (hwm pend : nat) (wakes : list (N * nat)) (w : waitres), 0 < d -> match dealer_send fire (route_full fire i (Some d) w) hwm (Some d) pend wakes with | Hang => False | Ret AOk t f => f = Enqueued /\ w = WRoom t /\ t <= d + slack | Ret AClosed t f => f = Dropped /\ w = WClosed t /\ t <= d + slack | Ret a t f => a = ATimeout /\ f = Dropped /\ d <= t /\ t <= d + slack end.
Proof.
  intros fire slack Hf i d hwm pend wakes w Hd. rewrite route_full_owned.
  pose proof (owned_positive fire slack Hf i d w Hd) as P.
  destruct (send_path fire (owned_variant i) TsFull (Some d) w) as [[] t f|]; cbn [dealer_send]; try tauto.
  destruct P as [[=] _].
Qed.
(* DEALER's queue processor (messages accepted into pending_outgoing_queue, handed out later): whatever
   route_message answers, the popped message is handed over, back at the front of the queue or still held by
   the suspended call; with a positive SNDTIMEO and the peer's pipe staying full it goes back to the front
   (it used to be replaced by an empty batch: repaired by a fix: commit) *)
Theorem C14_dealer_processor_keeps : forall (M : Type) (route : outcome) (m : M) (rest : list (qitem M)), proc_keeps route m rest.
Proof. intros M route m rest. destruct route as [[] t f|]; cbn; auto. Qed.
Theorem C14_dealer_processor_timeout_requeues : forall (fire : N -> N) (slack : N), (forall d : N, d <= fire d /\ fire d <= d + slack) -> forall (M : Type) (i : iface) (d : N) (m : M) (rest : list (qitem M)), 0 < d -> proc_route (route_full fire i (Some d) WNever) m rest = (QMsg m :: rest, false).
Proof.
  intros fire slack _ M i d m rest Hd. rewrite route_full_owned, positive_path by (destruct i; auto).
  destruct i; reflexivity.
Qed.
(* DEALER without a peer, pending queue full, positive SNDTIMEO: never early; on time when no futile
   wake-up arrives; a wake-up that finds the queue still full re-arms the whole interval *)
Theorem C14_dealer_queue_not_early : forall (fire : N -> N) (slack : N), (forall d : N, d <= fire d /\ fire d <= d + slack) -> forall (hwm : nat) (d : N), 0 < d -> forall (wakes : list (N * nat)) (e : N) (pend : nat) (a : answer) (t : N) (f : fate), dealer_queue fire hwm (Some d) e pend wakes = Ret a t f -> a <> AOk -> a = ATimeout /\ e + d <= t /\ f = Dropped.
Proof. exact dealer_queue_not_early. Qed.
Theorem C14_dealer_queue_on_time : forall (fire : N -> N) (slack : N), (forall d : N, d <= fire d /\ fire d <= d + slack) -> forall (hwm : nat) (d e : N) (pend : nat), 0 < d -> (hwm <= pend)%nat -> exists t : N, dealer_queue fire hwm (Some d) e pend [] = Ret ATimeout t Dropped /\ e + d <= t /\ t <= e + d + slack.
Proof.
  intros fire slack Hf hwm d e pend Hd Hp. pose proof (Hf d). cbn [dealer_queue].
  destruct (Nat.ltb_spec pend hwm); [lia|]. destruct (N.eqb_spec d 0); [lia|].
  eexists. split; [reflexivity|]. lia.
Qed.
Theorem C14_dealer_queue_late_refuted : forall (fire : N -> N) (slack : N), (forall d : N, d <= fire d /\ fire d <= d + slack) -> forall (hwm : nat) (d : N), 0 < d -> slack < d -> (0 < hwm)%nat -> exists (wakes : list (N * nat)) (t : N), dealer_queue fire hwm (Some d) 0 hwm wakes = Ret ATimeout t Dropped /\ d + slack < t.
Proof.
  intros fire slack Hf hwm d Hd Hs Hh. pose proof (Hf d). exists [(d, hwm)]. cbn [dealer_queue].
  rewrite Nat.ltb_irrefl. destruct (N.eqb_spec d 0); [lia|]. destruct (N.leb_spec d (fire d)); [|lia].
  eexists. split; [reflexivity|]. lia.
Qed.

(* ---- recv: RCVTIMEO the same way, for PULL/SUB (recv, recv_multipart), DEALER/REQ/REP and ROUTER ---- *)
(* RCVTIMEO = 0, nothing queued (and nothing cached / held): would-block at once, nothing popped *)
Theorem C14_rcv0_immediate : forall (fire : N -> N) (v : rvariant) (w : popres), recv_path fire v false (Some 0) (try_pop_of 0) w = RRet AWouldBlock 0 false.
Proof. intros fire v w. destruct v; reflexivity. Qed.
Theorem C14_rcv0_takes_queued : forall (fire : N -> N) (v : rvariant) (n : nat) (w : popres), recv_path fire v false (Some 0) (try_pop_of (S n)) w = RRet AOk 0 true.
Proof. intros fire v n w. destruct v; reflexivity. Qed.
Theorem C14_rcv_positive_not_early : forall (fire : N -> N) (slack : N), (forall d : N, d <= fire d /\ fire d <= d + slack) -> forall (v : rvariant) (d : N) (tp : trypop) (w : popres), 0 < d -> match recv_path fire v false (Some d) tp w with | RHang => False | RRet AOk t p => p = true /\ w = PAt t /\ t <= d + slack | RRet AClosed t p => p = false /\ w = PClosedAt t /\ t <= d + slack | RRet ATimeout t p => p = false /\ d <= t /\ t <= d + slack | RRet AWouldBlock _ _ => False end.
Proof.
  intros fire slack Hf v d tp w Hd. rewrite recv_path_table. cbn [andb]. destruct (N.eqb_spec d 0); [lia|].
  pose proof (timed_pop_cases fire slack Hf d w) as H. destruct (timed_pop fire d w) as [[] t p|]; exact H.
Qed.
(* RCVTIMEO = -1: every recv path waits for as long as it takes; there is no fall-back *)
Theorem C14_rcv_minus1_waits : forall (fire : N -> N) (v : rvariant) (tp : trypop) (w : popres), recv_path fire v false None tp w = match w with PAt t => RRet AOk t true | PClosedAt t => RRet AClosed t false | PNever => RHang end.
Proof. intros fire v tp w. destruct v; destruct w; reflexivity. Qed.
Theorem C14_rcv_no_spurious : forall (fire : N -> N) (slack : N), (forall d : N, d <= fire d /\ fire d <= d + slack) -> forall (v : rvariant) (pre : bool) (r : timeo) (tp : trypop) (w : popres), match recv_path fire v pre r tp w with | RRet AOk t p => (p = false /\ pre = true /\ t = 0 /\ v <> RAddr) \/ (p = true /\ ((tp = PItem /\ t = 0 /\ r = Some 0) \/ w = PAt t)) | RRet _ _ p => p = false | RHang => r = None /\ w = PNever end.
Proof.
  intros fire slack Hf v pre r tp w. rewrite recv_path_table. destruct (pre && negb _) eqn:Hp.
  { left. destruct pre, v; try discriminate; repeat split; discriminate. }
  destruct r as [d|]; [destruct (N.eqb_spec d 0) as [->|]|].
  - destruct tp; [right|]; auto.
  - pose proof (timed_pop_cases fire slack Hf d w) as H. destruct (timed_pop fire d w) as [[] t p|]; tauto.
  - destruct w; cbn; auto.
Qed.

(* ---- buffers of one connection, every schedule (producer and consumer speeds included) ---- *)
(* tcp / ipc session: pipe <= SNDHWM, egress buffer + carry-over <= SNDHWM (no batching allowance),
   ingress_buffer <= one read's worth, per-pipe queue <= RCVHWM *)
Theorem C14_buffer_bound : forall (bc : bcfg) (ec : ecfg) (cap rd : nat) (g0 : engine) (s : pstate), hreach bc ec cap rd g0 s -> (length (p_pipe s) <= hwm_of bc)%nat /\ (N.to_nat (e_msgs (p_eg s)) + length (p_carry s) <= hwm_of bc)%nat /\ (length (i_q (p_in s)) <= cap)%nat /\ (length (i_ib (p_in s)) <= rd)%nat /\ (buffered s <= 2 * hwm_of bc + rd + cap)%nat.
Proof.
  intros bc ec cap rd g0 s H. apply hreach_inv in H. destruct H as [H1 H2 H3 H4].
  unfold buffered. repeat split; auto; lia.
Qed.
Theorem C14_buffer_bound_run : forall (bc : bcfg) (ec : ecfg) (cap rd : nat) (g0 : engine) (evs : list pev), hrun_ok bc ec cap rd (p_init g0) evs = true -> (buffered (p_run bc ec cap g0 evs) <= 2 * hwm_of bc + rd + cap)%nat.
Proof.
  intros bc ec cap rd g0 evs H. apply (hrun_reach bc ec cap rd g0 evs (p_init g0) (hr_init bc ec cap rd g0)) in H.
  apply C14_buffer_bound in H. unfold p_run. tauto.
Qed.
(* inproc: the sender's SNDHWM plays no part. The channel has the RECEIVER's RCVHWM slots, the reader
   task stages at most RCVBATCH_COUNT batches (the fixed batching allowance: the sender refills the
   channel while the reader drains it, so this is NOT capped by RCVHWM - witness below), the
   per-pipe queue holds RCVHWM: in total 2*RCVHWM + max(RCVBATCH_COUNT,1), for every interleaving *)
Theorem C14_inproc_buffer_bound : forall (chan_cap cap rcvbatch : nat) (evs : list rev), let s := r_run chan_cap cap rcvbatch evs in (r_rx s <= chan_cap)%nat /\ (r_buf s + r_staged s <= Nat.max rcvbatch 1)%nat /\ (r_q s <= cap)%nat /\ (r_total s <= chan_cap + Nat.max rcvbatch 1 + cap)%nat.
Proof.
  intros chan_cap cap rcvbatch evs.
  destruct (fold_left_inv _ _ (rinv_step chan_cap cap rcvbatch) evs r_new) as [H1 H2 H3 H4 H5].
  { constructor; cbn; lia. }
  cbv zeta. fold (r_run chan_cap cap rcvbatch evs) in *. unfold r_total.
  destruct (r_buf (r_run chan_cap cap rcvbatch evs)) eqn:E; [|rewrite H4 in * by lia]; repeat split; auto; lia.
Qed.
Theorem C14_inproc_staging_exceeds_channel : exists evs, let s := r_run 1 1 128 evs in r_buf s = 5%nat /\ r_total s = 6%nat.
Proof.
  exists [RSend; RRecv; RSend; RMore; RSend; RMore; RSend; RMore; RSend; RMore; RSend]. vm_compute. split; reflexivity.
Qed.
(* C01's list-level model of the same path (Inproc.v), whose reader drains an atomic snapshot of the
   channel: there the staging is also capped by the channel's capacity *)
Theorem C14_inproc_buffer_bound_atomic_drain : forall (chan_cap cap rcvbatch : nat) (evs : list nev), let s := n_run chan_cap cap rcvbatch evs in (length (n_rx s) <= chan_cap)%nat /\ (n_staged s <= Nat.min (Nat.max rcvbatch 1) chan_cap)%nat /\ (length (n_q s) <= cap)%nat /\ (length (n_rx s) + n_staged s + length (n_q s) <= 2 * chan_cap + cap)%nat.
Proof.
  intros chan_cap cap rcvbatch evs.
  destruct (fold_left_inv _ _ (ninvb_step chan_cap cap rcvbatch) evs n_new) as [H1 H2 H3].
  { constructor; unfold n_staged, fly_list; cbn; lia. }
  cbv zeta. fold (n_run chan_cap cap rcvbatch evs) in *. repeat split; auto; lia.
Qed.
(* DEALER's pending_outgoing_queue *)
Theorem C14_dealer_pending_bound : forall (M : Type) (ser : bool) (hwm : nat) (evs : list (dev M)), (length (d_pend (d_run ser hwm evs)) <= hwm)%nat.
Proof.
  intros M ser hwm evs. apply fold_left_inv with (P := fun s => (length (d_pend s) <= hwm)%nat); [|apply Nat.le_0_l].
  intros s e H. destruct (d_step_moves ser hwm s e) as [-> _ _ | m _ _ _ -> _ _ | m _ _ Hl -> _ _ | l Hl _ _ _].
  - (* nothing *) exact H.
  - (* sent straight to the pipe *) exact H.
  - (* queued: there was room *) rewrite app_length. cbn [length]. lia.
  - (* handed over from the front *) rewrite Hl, app_length in H. lia.
Qed.

(* ---- non-vacuity: the timer law is satisfiable by a timer that is really late, the witness of
   the -1 refutation is concrete, and an admissible run reaches a state that holds messages ---- *)
Example C14_nonvacuous :
  (forall d : N, d <= (fun d => d + 3) d /\ (fun d => d + 3) d <= d + 5)
  /\ send_path (fun d => d + 3) VScaMulti TsFull None (WRoom 30004) = Ret AWouldBlock 30003 Dropped
  /\ send_path (fun d => d + 3) VScaOwned TsFull None (WRoom 30004) = Ret AOk 30004 Enqueued
  /\ send_path (fun d => d + 3) VInprocOwned TsFull (Some 50) (WRoom 60) = Ret ATimeout 53 Dropped
  /\ hrun_ok ex_h_bc ex_cfg 2 5 (p_init ex_g0) ex_h_evs = true
  /\ buffered (p_run ex_h_bc ex_cfg 2 ex_g0 ex_h_evs) = 4%nat
  /\ hrun_ok ex_h_bc ex_cfg 2 5 (p_init ex_g0) ex_h_evs_bad = false.
Proof. split; [intros d; lia|]. vm_compute. repeat split; reflexivity. Qed.

(* ---- the option layer (Model/Options.v; regenerated from core/src/socket/options.rs on every run and proved equal,
   Proofs/OptionsCheck.v): what the integer handed to set_option means, for EVERY byte string ---- *)
From RZ Require Import Model.Options Proofs.OptionsProofs Proofs.OptionsCompose.
(* SNDTIMEO: accepted iff the value is a 4-byte integer v >= -1; then the send paths see None (wait) for -1, Some 0
   (never wait) for 0, Some v ms otherwise, RCVTIMEO and every other option are untouched; anything else is refused
   under the option's id and nothing changes.  RCVTIMEO likewise. *)
Theorem C14_sndtimeo_option_semantics : forall (o : opts) (b : bytes), (match apply_opt o SNDTIMEO b with | inl o' => exists v, i32_of b = Some v /\ -1 <= v /\ sndtimeo_of o' = timeo_decode v /\ rcvtimeo_of o' = rcvtimeo_of o /\ (forall g, g <> F_sndtimeo -> o' g = o g) | inr e => e = EVal SNDTIMEO /\ (i32_of b = None \/ exists v, i32_of b = Some v /\ v < -1) end)%Z.
Proof.
  intros o b. pose proof (off_semantics _ _ _ sndtimeo_opt o b) as P. destruct (apply_opt o SNDTIMEO b) as [o'|e]; [|exact P].
  destruct P as (v & H1 & H2 & H3 & H4). exists v. repeat split; auto. unfold rcvtimeo_of, oget. now rewrite H4.
Qed.
Theorem C14_rcvtimeo_option_semantics : forall (o : opts) (b : bytes), (match apply_opt o RCVTIMEO b with | inl o' => exists v, i32_of b = Some v /\ -1 <= v /\ rcvtimeo_of o' = timeo_decode v /\ sndtimeo_of o' = sndtimeo_of o /\ (forall g, g <> F_rcvtimeo -> o' g = o g) | inr e => e = EVal RCVTIMEO /\ (i32_of b = None \/ exists v, i32_of b = Some v /\ v < -1) end)%Z.
Proof.
  intros o b. pose proof (off_semantics _ _ _ rcvtimeo_opt o b) as P. destruct (apply_opt o RCVTIMEO b) as [o'|e]; [|exact P].
  destruct P as (v & H1 & H2 & H3 & H4). exists v. repeat split; auto. unfold sndtimeo_of, oget. now rewrite H4.
Qed.
(* every v in -1 .. i32::MAX is accepted, and get_option returns exactly the value that was set *)
Theorem C14_timeo_option_get_after_set : forall (o : opts) (v : Z), (-1 <= v <= 2147483647)%Z -> (exists o', apply_opt o SNDTIMEO (i32_bytes v) = inl o' /\ retrieve_opt o' SNDTIMEO = GOk (i32_bytes v)) /\ (exists o', apply_opt o RCVTIMEO (i32_bytes v) = inl o' /\ retrieve_opt o' RCVTIMEO = GOk (i32_bytes v)).
Proof.
  intros o v H. split; [apply (get_after_set sndtimeo_opt o v GMsSat eq_refl) | apply (get_after_set rcvtimeo_opt o v GMsSat eq_refl)];
    try (unfold i32r; lia); now apply run_gk_mssat.
Qed.
(* SNDHWM / RCVHWM: any 4-byte integer is accepted, the mark is max(v, 0) messages, nothing else changes *)
Theorem C14_hwm_option_semantics : forall (o : opts) (b : bytes), (match apply_opt o SNDHWM b with | inl o' => exists v, i32_of b = Some v /\ sndhwm_of o' = Z.to_N (Z.max v 0) /\ (forall g, g <> F_sndhwm -> o' g = o g) | inr e => e = EVal 0 /\ i32_of b = None end)%Z /\ (match apply_opt o RCVHWM b with | inl o' => exists v, i32_of b = Some v /\ rcvhwm_of o' = Z.to_N (Z.max v 0) /\ (forall g, g <> F_rcvhwm -> o' g = o g) | inr e => e = EVal 0 /\ i32_of b = None end)%Z.
Proof.
  intros o b. split; [exact (hwm_semantics o SNDHWM b F_sndhwm eq_refl) | exact (hwm_semantics o RCVHWM b F_rcvhwm eq_refl)].
Qed.
(* a set_option call changes the rule's own field and the flags it switches on, nothing else; a refused call nothing *)
Theorem C14_option_frame : forall (o : opts) (id : Z) (b : bytes) (o' : opts) (r : rule), apply_opt o id b = inl o' -> find_rule apply_rules id = Some r -> forall g : field, g <> r_field r -> ~ In g (r_also r) -> o' g = o g.
Proof.
  intros o id b o' r H Hr g Hg Hn. rewrite (apply_opt_rule o id b r Hr) in H.
  destruct (run_pk (r_pk r) id b); [|discriminate]. injection H as <-.
  rewrite fold_oset_other by assumption. now apply oset_other.
Qed.
Theorem C14_option_error_keeps_config : forall (o : opts) (id : Z) (b : bytes) (e : oerr), apply_opt o id b = inr e -> apply_all o [(id, b)] = (o, [Some e]).
Proof. intros o id b e H. cbn. now rewrite H. Qed.
(* composed with the send / recv decisions above *)
Theorem C14_sndtimeo_zero_option_immediate : forall (fire : N -> N) (M : Type) (v : variant) (cap len : nat) (w : waitres) (q : list M) (m : M) (o : opts), (cap <= len)%nat -> exists o', apply_opt o SNDTIMEO (i32_bytes 0) = inl o' /\ let r := send_path fire v (try_of cap len false) (sndtimeo_of o') w in (exists f : fate, r = Ret AWouldBlock 0 f /\ f <> Enqueued) /\ after_send q m r = q.
Proof.
  intros fire M v cap len w q m o H. destruct (set_accepts sndtimeo_opt o 0) as (o' & Ha & Hs); [lia | unfold i32r; lia |].
  exists o'. split; [exact Ha|]. unfold sndtimeo_of, oget. rewrite Hs. change (as_timeo _) with (Some 0).
  destruct (C14_snd0_immediate fire M v cap len w q m H) as ((f & Hf & Hn & _) & Hq).
  cbv zeta. split; [exists f; auto | exact Hq].
Qed.
Theorem C14_sndtimeo_positive_option : forall (fire : N -> N) (slack : N) (o : opts) (d : Z) (v : variant) (w : waitres), (forall x : N, x <= fire x /\ fire x <= x + slack) -> is_sync v = false -> (0 < d <= 2147483647)%Z -> exists o', apply_opt o SNDTIMEO (i32_bytes d) = inl o' /\ positive_spec slack v (Z.to_N d) w (send_path fire v TsFull (sndtimeo_of o') w).
Proof.
  intros fire slack o d v w Hf Hs Hd. destruct (set_accepts sndtimeo_opt o d) as (o' & Ha & Hv); [lia | unfold i32r; lia |].
  exists o'. split; [exact Ha|]. unfold sndtimeo_of, oget. rewrite Hv, as_timeo_off_at.
  destruct (Z.eqb_spec d (-1)); [lia|]. apply (snd_positive_all fire slack Hf v (Z.to_N d) w Hs). lia.
Qed.
Theorem C14_rcvtimeo_option_extremes : forall (fire : N -> N) (o : opts) (v : rvariant) (tp : trypop) (w : popres), (exists o', apply_opt o RCVTIMEO (i32_bytes (-1)) = inl o' /\ recv_path fire v false (rcvtimeo_of o') tp w = match w with PAt t => RRet AOk t true | PClosedAt t => RRet AClosed t false | PNever => RHang end) /\ (exists o', apply_opt o RCVTIMEO (i32_bytes 0) = inl o' /\ recv_path fire v false (rcvtimeo_of o') (try_pop_of 0) w = RRet AWouldBlock 0 false).
Proof.
  intros fire o v tp w. split.
  - destruct (set_accepts rcvtimeo_opt o (-1)) as (o' & Ha & Hv); [lia | unfold i32r; lia |].
    exists o'. split; [exact Ha|]. unfold rcvtimeo_of, oget. rewrite Hv. apply C14_rcv_minus1_waits.
  - destruct (set_accepts rcvtimeo_opt o 0) as (o' & Ha & Hv); [lia | unfold i32r; lia |].
    exists o'. split; [exact Ha|]. unfold rcvtimeo_of, oget. rewrite Hv. apply C14_rcv0_immediate.
Qed.
Theorem C14_option_defaults : sndtimeo_of default_opts = None /\ rcvtimeo_of default_opts = None /\ linger_of default_opts = Some 0 /\ sndhwm_of default_opts = 256 /\ rcvhwm_of default_opts = 256 /\ maxmsgsize_of default_opts = (-1)%Z /\ heartbeat_ivl_of default_opts = None /\ handshake_ivl_of default_opts = None /\ reconnect_ivl_of default_opts = Some 1000 /\ reconnect_ivl_max_of default_opts = Some 0.
Proof. repeat split; reflexivity. Qed.
Example C14_options_nonvacuous :
  match apply_opt default_opts SNDTIMEO (i32_bytes 250) with
  | inl o' => sndtimeo_of o' = Some 250 /\ retrieve_opt o' SNDTIMEO = GOk [250; 0; 0; 0] /\ rcvtimeo_of o' = None
  | inr _ => False
  end
  /\ apply_opt default_opts SNDTIMEO (i32_bytes (-2)) = inr (EVal SNDTIMEO)
  /\ apply_opt default_opts SNDTIMEO [1; 0; 0] = inr (EVal SNDTIMEO).
Proof. vm_compute. repeat split; reflexivity. Qed.
(* the high-water marks read back as written; a negative value is clamped and reads back as 0 *)
Theorem C14_hwm_option_get_after_set : forall (o : opts) (v : Z), (0 <= v <= 2147483647)%Z -> (exists o', apply_opt o SNDHWM (i32_bytes v) = inl o' /\ retrieve_opt o' SNDHWM = GOk (i32_bytes v)) /\ (exists o', apply_opt o RCVHWM (i32_bytes v) = inl o' /\ retrieve_opt o' RCVHWM = GOk (i32_bytes v)).
Proof.
  intros o v H. split; [apply (hwm_get_after_set o SNDHWM F_sndhwm) | apply (hwm_get_after_set o RCVHWM F_rcvhwm)];
    try reflexivity; unfold i32r; lia.
Qed.
Theorem C14_hwm_option_negative_reads_zero : forall (o : opts) (v : Z), (-2147483648 <= v < 0)%Z -> exists o', apply_opt o SNDHWM (i32_bytes v) = inl o' /\ retrieve_opt o' SNDHWM = GOk (i32_bytes 0).
Proof. intros o v H. apply (hwm_get_after_set o SNDHWM F_sndhwm); try reflexivity; unfold i32r; lia. Qed.
