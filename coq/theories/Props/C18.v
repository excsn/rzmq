(* C18 - encrypted connections (CURVE, NOISE_XX): secrecy on the wire, tamper detection, decodability.
   The proofs rest on Proofs/SecFramerProofs.v. Every theorem is relative to an ideal AEAD
   ([ideal_aead seal open]: open (seal p) = p, only seal outputs open, |seal p| = |p| + 16) given as an
   explicit premise; nothing is claimed about dryoc / snow themselves.
   The record layer seals the plaintext of a write call in chunks of <= 65519 bytes (seal_records, the
   repair of the `ciphertext.len() as u16` wrap that used to make CURVE batches above 65519 bytes
   undecodable and Noise refuse them): the round trip holds for every size.
   Two parts of the property still FAIL for the code as written and are stated as refutations:
     C18_heartbeat_decodable_refuted     (PING/PONG bypass the record layer)
     C18_sessions_differ_refuted         (CURVE data keys depend on the static keys only, counters restart at 1) *)
From RZ Require Import Base.Prelude Base.Stepper Model.Codec Model.Engine Model.SecFramer Proofs.CodecProofs Proofs.SecFramerProofs.
Local Open Scope N_scope.

(* try_read_msg is an append-stable stepper: decoding never depends on how the byte stream is cut *)
Theorem C18_chunk_independence : forall key (seal : key -> N -> bytes -> bytes) open, ideal_aead seal open ->
  forall m (c : cipher key) cs1 cs2, concat cs1 = concat cs2 -> recv_run key open m c cs1 = recv_run key open m c cs2.
Proof.
  intros key seal open _ m c cs1 cs2 Hc. unfold recv_run. rewrite !feed_pump, Hc. reflexivity.
Qed.

(* what a sender really emits: every write call succeeds for every size (both mechanisms) and emits one
   record per 65519-byte chunk of the plaintext, counters +1 each *)
Theorem C18_sender_emits : forall key (seal : key -> N -> bytes -> bytes) open, ideal_aead seal open ->
  forall kd ek dk sn rn b, ctr_room sn (length (chunks (enc_contiguous b))) ->
  write_msg_batch key seal {| c_kind := kd; c_ek := ek; c_dk := dk; c_sn := sn; c_rn := rn |} b =
  (SOk (concat (chunk_wires key seal ek sn (chunks (enc_contiguous b)))),
   {| c_kind := kd; c_ek := ek; c_dk := dk; c_sn := sn + N.of_nat (length (chunks (enc_contiguous b))); c_rn := rn |}).
Proof.
  intros key seal open _ kd ek dk sn rn.
  exact (write_ok key seal {| c_kind := kd; c_ek := ek; c_dk := dk; c_sn := sn; c_rn := rn |}).
Qed.
Theorem C18_sender_emits_all : forall key (seal : key -> N -> bytes -> bytes) open, ideal_aead seal open ->
  forall kd ek dk rn bs sn, ctr_room sn (length (all_chunks bs)) ->
  exists ws,
  send_all key seal {| c_kind := kd; c_ek := ek; c_dk := dk; c_sn := sn; c_rn := rn |} bs =
  (map SOk ws,
   {| c_kind := kd; c_ek := ek; c_dk := dk; c_sn := sn + N.of_nat (length (all_chunks bs)); c_rn := rn |}) /\
  concat ws = concat (chunk_wires key seal ek sn (all_chunks bs)).
Proof.
  intros key seal open _ kd ek dk rn bs sn.
  exact (send_all_ok key seal bs {| c_kind := kd; c_ek := ek; c_dk := dk; c_sn := sn; c_rn := rn |}).
Qed.

(* enc_roundtrip_any_size: every sequence of batches of ANY size is decoded by the peer to the same frames,
   for every segmentation of the byte stream, CURVE and Noise alike *)
Theorem C18_enc_roundtrip_any_size : forall key (seal : key -> N -> bytes -> bytes) open, ideal_aead seal open ->
  forall m kd ek k sn n bs cs,
  Forall (admitted m) (flat bs) -> ctr_room n (length (all_chunks bs)) ->
  concat cs = concat (chunk_wires key seal k n (all_chunks bs)) ->
  feed (sstep key open m) (smu key) 0 (rcv key kd ek k sn n) [] cs =
    (rcv key kd ek k sn (n + N.of_nat (length (all_chunks bs))), [], map RFrame (flat bs)).
Proof. intros key seal open (h1 & h2 & h3). exact (enc_roundtrip_any_size key seal open h1 h2 h3). Qed.

(* tamper_prefix_safety: for every sealed sequence (any sizes) and EVERY stream the attacker can build
   without forging a ciphertext (flip, drop, duplicate, swap, cut, inject), cut in any way, the receiver
   hands out a prefix [fs] of the frames that were sent - exactly those complete in the plaintext of the
   first j' records, in order, once - and then nothing, or one error after which it is closed *)
Theorem C18_tamper_prefix_safety : forall key (seal : key -> N -> bytes -> bytes) open, ideal_aead seal open ->
  forall m kd ek k sn n0 bs cs,
  Forall (admitted m) (flat bs) -> ctr_room n0 (length (all_chunks bs)) ->
  unforged key seal k (sealed n0 (all_chunks bs)) (concat cs) ->
  let '(st', _, o) := feed (sstep key open m) (smu key) 0 (rcv key kd ek k sn n0) [] cs in
  exists j' d' fs, (j' <= length (all_chunks bs))%nat /\
    PR m (concat (firstn j' (all_chunks bs))) d' fs /\ prefix fs (flat bs) /\
    ((o = map RFrame fs /\ st' = rcvd key kd ek k sn (n0 + N.of_nat j') d') \/
     (o = map RFrame fs ++ [RErr] /\ r_closed st' = true)).
Proof. intros key seal open (h1 & h2 & h3). exact (tamper_prefix_safety key seal open h1 h2 h3). Qed.

(* the first record that is not the next sealed one: nothing that is not complete in the intact records
   before it is delivered, and as soon as its bytes are complete the receiver fails and closes *)
Theorem C18_tamper_detected : forall key (seal : key -> N -> bytes -> bytes) open, ideal_aead seal open ->
  forall m kd ek k sn n0 bs j rest cs,
  let chs := all_chunks bs in
  Forall (admitted m) (flat bs) -> ctr_room n0 (length chs) -> (j <= length chs)%nat ->
  wf_bytes (firstn 2 rest) = true ->
  (forall ch, nth_error chs j = Some ch -> ~ prefix (record_of (seal k (n0 + N.of_nat j) ch)) rest) ->
  unforged key seal k (sealed n0 chs) (concat (chunk_wires key seal k n0 (firstn j chs)) ++ rest) ->
  concat cs = concat (chunk_wires key seal k n0 (firstn j chs)) ++ rest ->
  exists dj fsj, PR m (concat (firstn j chs)) dj fsj /\ prefix fsj (flat bs) /\
  let '(st', r, o) := feed (sstep key open m) (smu key) 0 (rcv key kd ek k sn n0) [] cs in
  if complete rest
  then o = map RFrame fsj ++ [RErr] /\ r_closed st' = true
  else o = map RFrame fsj /\ st' = rcvd key kd ek k sn (n0 + N.of_nat j) dj /\ r = rest.
Proof.
  intros key seal open (h1 & h2 & h3) m kd ek k sn n0 bs j rest cs chs Ha Hr Hj Hwf Hnext Hu Hc.
  rewrite feed_pump, Hc.
  exact (tamper_detected key seal open h1 h2 h3 m kd ek k sn n0 chs [] (flat bs) (honest_PR m bs Ha) Hr j rest
           (all_chunks_okc bs) Hj Hwf Hnext Hu).
Qed.

(* the same at the level of the engine's DeliverMessage actions: whole messages of a prefix of what was sent *)
Theorem C18_tamper_messages : forall key (seal : key -> N -> bytes -> bytes) open, ideal_aead seal open ->
  forall m kd ek k sn n0 bs cs,
  Forall (admitted m) (flat bs) -> Forall wf_msg (all_msgs bs) -> ctr_room n0 (length (all_chunks bs)) ->
  unforged key seal k (sealed n0 (all_chunks bs)) (concat cs) ->
  let '(_, _, o) := feed (sstep key open m) (smu key) 0 (rcv key kd ek k sn n0) [] cs in
  exists kk, (kk <= length (all_msgs bs))%nat /\
    (snd (data_fold d_init o) = map ODeliver (firstn kk (all_msgs bs)) \/
     snd (data_fold d_init o) = map ODeliver (firstn kk (all_msgs bs)) ++ [OErr ESecurity]).
Proof.
  intros key seal open (h1 & h2 & h3) m kd ek k sn n0 bs cs Ha Hw Hr Hu.
  pose proof (tamper_prefix_safety key seal open h1 h2 h3 m kd ek k sn n0 bs cs Ha Hr Hu) as H.
  destruct (feed _ _ _ _ _ _) as [[st' r] o]. destruct H as (j' & d' & fs & _ & _ & Hp & Hres).
  rewrite flat_concat in Hp. destruct (data_fold_prefix _ Hw _ Hp) as (kk & st & Hk & Hcl & Ho).
  exists kk. split; [exact Hk|]. destruct Hres as [[-> _] | [-> _]].
  - left. rewrite Ho. reflexivity.
  - right. exact (data_fold_snoc_err _ _ _ _ Ho Hcl).
Qed.

(* no_cleartext (symbolic): what a write call emits is, per chunk of the plaintext, a length prefix
   computed from a length followed by ONE seal output; the batch influences the wire only through the
   seal outputs of its chunks *)
Theorem C18_no_cleartext : forall key (seal : key -> N -> bytes -> bytes) open, ideal_aead seal open ->
  forall (c : cipher key) b w c',
  write_msg_batch key seal c b = (SOk w, c') ->
  w = concat (chunk_wires key seal (c_ek c) (c_sn c) (chunks (enc_contiguous b))).
Proof. intros key seal open (h1 & h2 & _). exact (no_cleartext key seal open h1 h2). Qed.
Theorem C18_no_cleartext_noninterference : forall key (seal : key -> N -> bytes -> bytes) open, ideal_aead seal open ->
  forall (c : cipher key) b1 b2,
  Forall2 (fun a b => forall n, seal (c_ek c) n a = seal (c_ek c) n b)
          (chunks (enc_contiguous b1)) (chunks (enc_contiguous b2)) ->
  write_msg_batch key seal c b1 = write_msg_batch key seal c b2.
Proof.
  intros key seal open (h1 & h2 & h3) c b1 b2 H. exact (seal_chunks_ni key seal open h1 h2 h3 _ _ c [] H).
Qed.

(* REFUTED (heartbeat_decodable): batches, a heartbeat PING (on_tick writes it outside the record layer),
   more batches (< 1024 bytes of records). The peer delivers what preceded the PING; the PING is read as
   the record length 0x0407 and it and everything after it stays in the buffer: no PONG, no delivery. *)
Theorem C18_heartbeat_decodable_refuted : forall key (seal : key -> N -> bytes -> bytes) open, ideal_aead seal open ->
  forall m kd ek k sn n bs1 ttl bs2 cs,
  let k1 := N.of_nat (length (all_chunks bs1)) in
  Forall (admitted m) (flat bs1) -> ctr_room n (length (all_chunks bs1)) ->
  len (concat (chunk_wires key seal k (n + k1) (all_chunks bs2))) < 1024 ->
  concat cs = concat (chunk_wires key seal k n (all_chunks bs1)) ++ hb_ping ttl ++
              concat (chunk_wires key seal k (n + k1) (all_chunks bs2)) ->
  feed (sstep key open m) (smu key) 0 (rcv key kd ek k sn n) [] cs =
  (rcv key kd ek k sn (n + k1),
   hb_ping ttl ++ concat (chunk_wires key seal k (n + k1) (all_chunks bs2)),
   map RFrame (flat bs1)).
Proof.
  intros key seal open (h1 & h2 & h3) m kd ek k sn n bs1 ttl bs2 cs k1 Ha Hr Hl Hc.
  rewrite feed_pump, Hc. apply (sk_Run_pump (sec_ok key open m)). rewrite <- (app_nil_r (map RFrame _)).
  apply (run_honest key seal open h1 h2 h3); [exact Ha | exact Hr |].
  apply RunNeed, incomplete_need, ping_incomplete. exact Hl.
Qed.
(* the PING really is what on_tick emits, and without a PONG the next tick after the timeout closes *)
Theorem C18_heartbeat_ping_then_timeout : forall key (seal : key -> N -> bytes -> bytes) open, ideal_aead seal open ->
  forall cfg g t0 ivl T,
  e_phase (g_st g) = PData -> e_version (g_st g) = Some V3 ->
  c_hb_ivl cfg = Some ivl -> c_hb_timeout cfg = Some T ->
  h_waiting (g_hb g) = false -> ivl <= t0 - h_last_activity (g_hb g) ->
  let '(g1, o1) := e_tick cfg g t0 in
  o1 = [OSend (hb_ping (N.min (T / 1000000) u16_max)) false] /\
  forall t1, T <= t1 - t0 ->
    snd (e_tick cfg g1 t1) = [OErr ETimeout] /\ e_phase (g_st (fst (e_tick cfg g1 t1))) = PClosed.
Proof.
  intros _ _ _ _ cfg g t0 ivl T Hp Hv Hi Ht Hw Hd. unfold e_tick. rewrite Hp, Hv, Ht, Hi, Hw.
  assert (match h_last_ping (g_hb g) with Some p => false && (T <=? t0 - p) | None => false end = false) as ->
    by (destruct (h_last_ping (g_hb g)); reflexivity).
  cbn [negb andb]. assert (ivl <=? t0 - h_last_activity (g_hb g) = true) as -> by lia.
  split; [reflexivity|]. intros t1 H1.
  cbn [g_st g_hb h_last_ping h_waiting andb]. rewrite Hp, Hv.
  assert (T <=? t1 - t0 = true) as -> by lia. cbn [snd fst g_st closed set_phase e_phase]. auto.
Qed.
(* a PING that arrived inside a record is answered by a PONG in clear, which the peer swallows likewise *)
Theorem C18_pong_in_clear : forall ttl ctx,
  data_on d_init (RFrame (cmd_frame (ping_body ttl ctx))) = (d_init, [OSend (hb_pong ctx) false]).
Proof.
  intros ttl ctx.
  assert (parse_cmd (cmd_frame (ping_body ttl ctx)) = CPing ctx) as Hp.
  { unfold parse_cmd, cmd_frame, ping_body. cbn [f_cmd f_more f_payload negb orb be_bytes app s_PING].
    cbn [starts_with]. rewrite !N.eqb_refl. cbn [andb length Nat.leb skipn]. reflexivity. }
  unfold data_on, d_init. cbn [d_closed]. rewrite Hp. reflexivity.
Qed.
Theorem C18_pong_swallowed : forall key (seal : key -> N -> bytes -> bytes) open, ideal_aead seal open ->
  forall m kd ek k sn n d ctx rest, len ctx <= 250 -> len rest < 1024 ->
  pump (sstep key open m) (smu key) 0 (rcvd key kd ek k sn n d) (hb_pong ctx ++ rest) =
  (rcvd key kd ek k sn n d, hb_pong ctx ++ rest, []).
Proof.
  intros key seal open _ m kd ek k sn n d ctx rest Hc Hl.
  apply (sk_Run_pump (sec_ok key open m)), RunNeed, incomplete_need, pong_incomplete; assumption.
Qed.

(* REFUTED (sessions_differ), CURVE: for ALL static keys, roles, ephemeral keys of two sessions and all
   batches, the first data record is byte-identical (keys from crypto_kx over the static keys only,
   counters restart at 1) *)
Theorem C18_sessions_differ_refuted : forall key (seal : key -> N -> bytes -> bytes)
  (statics eph : Type) (curve_kx : bool -> statics -> key * key) server sk (e1 e2 e1' e2' : eph) b,
  write_msg_batch key seal (curve_data_cipher key statics eph curve_kx server sk e1 e2) b =
  write_msg_batch key seal (curve_data_cipher key statics eph curve_kx server sk e1' e2') b.
Proof. exact sessions_differ_refuted. Qed.
(* Noise_XX: holds when distinct ephemerals give distinct transport keys and seal separates keys *)
Theorem C18_sessions_differ_noise : forall key (seal : key -> N -> bytes -> bytes) open, ideal_aead seal open ->
  forall (statics eph : Type) (curve_kx : bool -> statics -> key * key)
         (noise_split : bool -> statics -> eph -> eph -> key * key) server sk
         (e1 e2 e1' e2' : eph) b,
  (forall k k' n p, seal k n p = seal k' n p -> k = k') ->
  snd (noise_split server sk e1 e2) <> snd (noise_split server sk e1' e2') ->
  enc_contiguous b <> [] -> ctr_room 0 (length (chunks (enc_contiguous b))) ->
  fst (write_msg_batch key seal (noise_data_cipher key statics eph noise_split server sk e1 e2) b) <>
  fst (write_msg_batch key seal (noise_data_cipher key statics eph noise_split server sk e1' e2') b).
Proof.
  intros key seal open (h1 & h2 & h3) statics eph _ noise_split.
  exact (sessions_differ_noise key seal open h1 h2 h3 statics eph noise_split).
Qed.

(* reflection: an endpoint never accepts one of ITS OWN records as the peer's, whatever the counters are (e.g. aligned
   after a symmetric exchange) - provided its two directions use different keys and the idealised AEAD separates keys *)
Theorem C18_reflection_rejected : forall key (seal : key -> N -> bytes -> bytes) open,
  (forall k n c p, open k n c = Some p -> c = seal k n p) ->
  (forall k n p k' n' p', seal k n p = seal k' n' p' -> k = k') ->
  forall (c : cipher key) n pt, c_ek c <> c_dk c ->
  forall p c', decrypt key open c (seal (c_ek c) n pt) <> DcOk p c'.
Proof.
  intros key seal open Hauth Hsep c n pt Hk p c' H.
  apply decrypt_ok_open, Hauth, Hsep in H. exact (Hk H).
Qed.
(* the same key for both directions (CURVE: shared nonce prefix, counters starting at 1) accepts it *)
Theorem C18_reflection_accepted_with_one_key_refuted : forall key (seal : key -> N -> bytes -> bytes) open,
  (forall k n p, open k n (seal k n p) = Some p) -> (forall k n p, len (seal k n p) = len p + TAG) ->
  forall (c : cipher key) pt, c_kind c = KCurve -> c_ek c = c_dk c -> ctr_ok (c_rn c) = true ->
  decrypt key open c (seal (c_ek c) (c_rn c) pt) = DcOk pt (set_rn c (c_rn c + 1)).
Proof.
  intros key seal open Hopen Hlen c pt Hkd Hk Hc. rewrite decrypt_eq, Hlen, <- Hk, Hopen by exact Hc.
  assert (len pt + TAG <? TAG = false) as -> by lia. reflexivity.
Qed.

(* non-vacuity: the toy AEAD satisfies the laws; a replayed record gives an unforged tampered stream on
   which the receiver delivers the first batch once and then fails; an honest stream with a 70000-byte
   frame (two records) between two small batches, cut in three pieces, is decoded completely *)
Example C18_example :
  ideal_aead toy_seal toy_open /\
  unforged N toy_seal ex_key (sealed 1 (all_chunks [ex_b0; ex_b1])) (ex_w0 ++ ex_w0) /\
  snd (feed (sstep N toy_open (-1)) (smu N) 0 (rcv N KCurve 7 ex_key 1 1) [] [ex_w0; ex_w0]) =
    map RFrame (flat [ex_b0]) ++ [RErr] /\
  length (all_chunks [ex_b0; ex_big; ex_b1]) = 4%nat /\
  (let w := concat (chunk_wires N toy_seal ex_key 1 (all_chunks [ex_b0; ex_big; ex_b1])) in
   map rsum (snd (feed (sstep N toy_open (-1)) (smu N) 0 (rcv N KCurve 7 ex_key 1 1) []
                        [firstn 1 w; firstn (N.to_nat 66000) (skipn 1 w); skipn (N.to_nat 66001) w])) =
   map rsum (map RFrame (flat [ex_b0; ex_big; ex_b1]))).
Proof.
  (* four records: counted from the lengths of the three encoded batches (chunks_count, enc_codec_len, fill_len) *)
  assert (length (all_chunks [ex_b0; ex_big; ex_b1]) = 4%nat) as H4.
  { apply Nat2N.inj. unfold all_chunks. cbn [map concat]. rewrite !app_length, !Nat2N.inj_add, !chunks_count.
    unfold enc_contiguous, ex_b0, ex_big, ex_b1. cbn [concat map app]. rewrite !app_nil_r, !len_app, !enc_codec_len.
    cbn [f_payload]. rewrite !fill_len. reflexivity. }
  split; [exact toy_ideal|]. split; [exact ex_replay_unforged|].
  split; [vm_compute; reflexivity|]. split; [exact H4|].
  (* the honest stream: by C18_enc_roundtrip_any_size, whose premises are that the frames are admitted, that the
     counter has room for four records, and that the three reads make up w; the stream itself is never built *)
  intros w.
  rewrite (C18_enc_roundtrip_any_size N toy_seal toy_open toy_ideal (-1) KCurve 7 ex_key 1 1 [ex_b0; ex_big; ex_b1]).
  - reflexivity.
  - unfold flat, ex_b0, ex_big, ex_b1. cbn [map concat app].
    repeat (constructor; [unfold admitted, fits; cbn [f_payload]; rewrite ?fill_len; split; reflexivity|]). constructor.
  - rewrite H4. vm_compute. reflexivity.
  - replace (N.to_nat 66001) with (1 + N.to_nat 66000)%nat by lia. fold w. clearbody w.
    cbn [concat]. rewrite app_nil_r, <- skipn_skipn, firstn_skipn. apply firstn_skipn.
Qed.
