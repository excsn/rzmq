(* C11 - a ROUTER addresses by true identity; envelopes round-trip unchanged.
   The statements, each derived in a few lines from the lemmas of Proofs/RouterMapProofs.v,
   Proofs/EnvelopeProofs.v and Proofs/RouterGateProofs.v. *)
From RZ Require Import Base.Prelude Model.RouterMap Model.Envelope Model.RouterGate Proofs.RouterMapProofs Proofs.EnvelopeProofs Proofs.RouterGateProofs.
Local Open Scope N_scope.

(* ---- the two identity maps, every history of attach / announce / detach / stale-cleanup ---- *)
(* general invariant (colliding identities included): unique keys; every live pipe has its reverse entry with
   its latest identity; every forward entry (u, st, o) of identity i is backed by its recorded owner o: o is a live
   pipe, its latest identity is i, and the entry holds exactly o's uri and strategy *)
Theorem C11_router_inv : forall uri_of placeholder h,
  RInv uri_of (run uri_of placeholder h) (spec_run placeholder h).
Proof. exact router_inv_holds. Qed.
Theorem C11_router_inv_unfolded : forall uri_of placeholder h,
  let m := run uri_of placeholder h in let s := spec_run placeholder h in
  NoDup (map fst (fwd m)) /\ NoDup (map fst (rev m)) /\ NoDup (map fst s) /\
  (forall p i st, sget p s = Some (i, st) -> rget p m = Some i) /\
  (forall i u st o, fget i m = Some (u, st, o) -> rget o m = Some i /\ sget o s = Some (i, st) /\ u = uri_of o).
Proof. exact router_inv_holds. Qed.

(* identities pairwise distinct among live pipes: lookup by identity leads to the pipe that announced it (which
   is the entry's owner), the reverse map is exactly the live pipes, nothing else is in either map *)
Theorem C11_lookup_true_peer : forall uri_of placeholder h,
  distinct_hist placeholder h = true ->
  let m := run uri_of placeholder h in let s := spec_run placeholder h in
  (forall p i st, sget p s = Some (i, st) -> rget p m = Some i /\ fget i m = Some (uri_of p, st, p)) /\
  (forall p i, rget p m = Some i -> exists st, sget p s = Some (i, st)) /\
  (forall i u st o, fget i m = Some (u, st, o) -> sget o s = Some (i, st) /\ u = uri_of o) /\
  (forall p q i, rget p m = Some i -> rget q m = Some i -> p = q).
Proof. exact lookup_true_peer_holds. Qed.

(* colliding identities, exact behaviour *)
(* the later claimant gets the forward entry and becomes its owner; nobody else's reverse entry moves *)
Theorem C11_collision_last_wins : forall id p u t m,
  (fget id (add_peer id p u m) = Some (u, SDefault, p) /\ forall q, q <> p -> rget q (add_peer id p u m) = rget q m) /\
  (fget id (update_peer_identity p id u t m) = Some (u, strat_of_type t, p) /\
   forall q, q <> p -> rget q (update_peer_identity p id u t m) = rget q m).
Proof.
  exact (fun id p u t m => conj (claims_last_wins _ _ _ _ _ (add_peer_claims id p u m))
                                (claims_last_wins _ _ _ _ _ (upd_claims p id u t m))).
Qed.
(* p and q both carry id, the forward entry of id belongs to p: q detaching takes away q's reverse entry and
   nothing else - the live pipe p stays addressable *)
Theorem C11_collision_detach_keeps_live : forall p q id u st m,
  p <> q -> rget p m = Some id -> rget q m = Some id -> fget id m = Some (u, st, p) ->
  let m' := remove_peer_by_read_pipe q m in
  rget p m' = Some id /\ fget id m' = Some (u, st, p) /\
  (forall j, fget j m' = fget j m) /\
  (forall k, rget k m' = if k =? q then None else rget k m).
Proof.
  intros p q id u st m N P Q F m'. pose proof (bystander_detach q m id u st p Q F N) as FJ.
  split; [unfold m'; rewrite rmp_rget, (proj2 (N.eqb_neq p q) N); exact P|].
  split; [rewrite FJ; exact F|]. split; [exact FJ|intros k; apply rmp_rget].
Qed.
(* likewise when q re-announces under another identity id' (update_peer_identity) or is attached anew under id'
   (add_peer): q's own entry for id' appears, every other forward entry - that of id included - stays *)
Theorem C11_collision_reannounce_keeps_live : forall p q id id' u st u' t m,
  p <> q -> id' <> id -> rget p m = Some id -> rget q m = Some id -> fget id m = Some (u, st, p) ->
  let m' := update_peer_identity q id' u' t m in
  rget p m' = Some id /\ fget id m' = Some (u, st, p) /\
  fget id' m' = Some (u', strat_of_type t, q) /\
  (forall j, j <> id' -> fget j m' = fget j m) /\
  (forall k, rget k m' = if k =? q then Some id' else rget k m).
Proof. exact (fun p q id id' u st u' t m => collision_claim_keeps_live p q id id' u st _ m _ (upd_claims q id' u' t m)). Qed.
Theorem C11_collision_reattach_keeps_live : forall p q id id' u st u' m,
  p <> q -> id' <> id -> rget p m = Some id -> rget q m = Some id -> fget id m = Some (u, st, p) ->
  let m' := add_peer id' q u' m in
  rget p m' = Some id /\ fget id m' = Some (u, st, p) /\
  fget id' m' = Some (u', SDefault, q) /\
  (forall j, j <> id' -> fget j m' = fget j m) /\
  (forall k, rget k m' = if k =? q then Some id' else rget k m).
Proof. exact (fun p q id id' u st u' m => collision_claim_keeps_live p q id id' u st _ m _ (add_peer_claims id' q u' m)). Qed.
(* the dual: the detaching pipe q IS the owner - its entry goes (only that one); the other pipe p keeps its
   reverse entry and is then not addressable, but nothing is delivered to a wrong peer *)
Theorem C11_collision_owner_detach_removes : forall p q id u st m,
  p <> q -> rget p m = Some id -> rget q m = Some id -> fget id m = Some (u, st, q) ->
  let m' := remove_peer_by_read_pipe q m in
  rget p m' = Some id /\ fget id m' = None /\
  (forall j, j <> id -> fget j m' = fget j m) /\
  (forall k, rget k m' = if k =? q then None else rget k m).
Proof.
  intros p q id u st m N P Q F m'. unfold m'.
  split; [rewrite rmp_rget, (proj2 (N.eqb_neq p q) N); exact P|].
  split; [rewrite rmp_fget, (proj2 (releases_true_iff q m id)); [reflexivity|eauto]|].
  split; [|intros k; apply rmp_rget].
  intros j NJ. rewrite rmp_fget, (releases_other_identity q m id j Q NJ). reflexivity.
Qed.
(* ALL histories, no distinctness premise: whatever forward entry an identity has, it leads to a pipe that is
   live now and whose latest attach/announcement carried that identity (the latest claimant), with its uri and
   strategy; a message addressed to the identity is handed to that pipe's connection *)
Theorem C11_latest_claimant_reachable : forall uri_of placeholder h,
  let m := run uri_of placeholder h in let s := spec_run placeholder h in
  forall i u st o, fget i m = Some (u, st, o) ->
    u = uri_of o /\ rget o m = Some i /\ sget o s = Some (i, st).
Proof. exact latest_claimant_reachable. Qed.
Theorem C11_send_reaches_latest_claimant : forall uri_of placeholder h i u st o mandatory manual conn hint b payload,
  fget i (run uri_of placeholder h) = Some (u, st, o) -> i <> [] -> conn (uri_of o) = COk ->
  sget o (spec_run placeholder h) = Some (i, st) /\
  router_send_multipart mandatory manual conn hint (run uri_of placeholder h) ((b, i) :: payload) =
  (run uri_of placeholder h, SSent (uri_of o) (router_wire st manual (b, i) payload)).
Proof. exact send_reaches_latest_claimant. Qed.
(* ... and the entry stays with its owner o: attach / announce / detach of any OTHER pipe q leaves it alone,
   unless q claims the identity itself and thereby becomes the owner (any map m) *)
Theorem C11_nonowner_step_keeps_entry : forall uri_of placeholder m i u st o q,
  fget i m = Some (u, st, o) -> q <> o ->
  fget i (ev_step uri_of placeholder m (EDetach q)) = Some (u, st, o) /\
  (forall ido, fget i (ev_step uri_of placeholder m (EAttach q ido)) =
               if ident_eqb (eff_id placeholder q ido) i then Some (uri_of q, SDefault, q) else Some (u, st, o)) /\
  (forall ido t, fget i (ev_step uri_of placeholder m (EAnnounce q ido t)) =
                 if ident_eqb (eff_id placeholder q ido) i then Some (uri_of q, strat_of_type t, q) else Some (u, st, o)).
Proof. exact nonowner_step_keeps_entry. Qed.
(* the history that used to lose the live peer: 1 and 2 announce "A", the older pipe 1 detaches - "A" leads to 2 *)
Theorem C11_collision_older_detach_example :
  let h := [EAttach 1 None; EAnnounce 1 (Some [65]) (Some TDealer);
            EAttach 2 None; EAnnounce 2 (Some [65]) (Some TDealer); EDetach 1] in
  let m := run (fun q => q + 100) placeholder_id h in
  sget 2 (spec_run placeholder_id h) = Some ([65], SDealer) /\ sget 1 (spec_run placeholder_id h) = None /\
  rget 2 m = Some [65] /\ rget 1 m = None /\
  fget [65] m = Some (102, SDealer, 2) /\
  forall mandatory manual conn hint b payload, conn 102 = COk ->
    router_send_multipart mandatory manual conn hint m ((b, [65]) :: payload) =
    (m, SSent 102 (router_wire SDealer manual (b, [65]) payload)).
Proof. exact collision_older_detach_example. Qed.
(* what still fails without the distinctness premise: the NEWER claimant (the owner) detaches while the older one
   is attached - the older live peer that announced the identity cannot be addressed (HostUnreachable / silent drop) *)
Theorem C11_older_claimant_after_owner_leaves_refuted :
  exists h p i st, sget p (spec_run placeholder_id h) = Some (i, st) /\
                   rget p (run (fun q => q + 100) placeholder_id h) = Some i /\
                   fget i (run (fun q => q + 100) placeholder_id h) = None /\
                   forall mandatory manual conn hint b payload,
                     snd (router_send_multipart mandatory manual conn hint (run (fun q => q + 100) placeholder_id h) ((b, i) :: payload))
                     = if mandatory then SUnreachable else SDropped.
Proof.
  exists [EAttach 1 None; EAnnounce 1 (Some [65]) (Some TDealer);
          EAttach 2 None; EAnnounce 2 (Some [65]) (Some TDealer); EDetach 2], 1, [65], SDealer.
  split; [reflexivity|]. split; [reflexivity|]. split; [reflexivity|].
  intros. rewrite send_unknown; [reflexivity|discriminate|reflexivity].
Qed.
(* remove_peer_by_identity: any candidate may be the one HashMap iteration meets first; with at most one
   candidate the order is irrelevant *)
Theorem C11_remove_by_identity_any_candidate : forall k id m,
  NoDup (map fst (rev m)) -> fget id m <> None -> rget k m = Some id ->
  forall q, rget q (remove_peer_by_identity k id m) = if q =? k then None else rget q m.
Proof. exact rmi_any_candidate. Qed.
Theorem C11_remove_by_identity_oracle_irrelevant : forall h1 h2 id m,
  NoDup (map fst (rev m)) -> (forall p q, rget p m = Some id -> rget q m = Some id -> p = q) ->
  (forall q, rget q (remove_peer_by_identity h1 id m) = rget q (remove_peer_by_identity h2 id m)) /\
  (forall j, fget j (remove_peer_by_identity h1 id m) = fget j (remove_peer_by_identity h2 id m)).
Proof. intros h1 h2 id m ND U. rewrite (rmi_hint_irrelevant h1 h2 id m ND U). split; reflexivity. Qed.

(* ---- receive side: identity label and the identity-finalization gate, every event order ---- *)
(* a pipe whose peer's effective identity is id (its ROUTING_ID, or the placeholder if it announced none), attached
   either with that identity (inproc, io-uring) or pre-handshake with a placeholder (tcp/ipc): every message recv
   hands out for that pipe is labelled id - whatever the order of first message, identity event and recv calls;
   never a placeholder for a peer that announced an identity *)
Theorem C11_gate_labelled : forall (B : Type) placeholder p id h,
  handshaking_pipe B placeholder p id (gate0 B) h = true ->
  forall lbl b, In (p, lbl, b) (g_out (grun B placeholder h)) -> lbl = id.
Proof.
  intros B placeholder p id h W lbl b I.
  destruct (labelled_run B placeholder p id _ h (labelled_gate0 B p id) W) as [_ L2]. exact (L2 _ _ I).
Qed.
(* nothing is handed out before its pipe is finalized, and the label is the identity recorded at that moment *)
Theorem C11_gate_not_before_final : forall (B : Type) placeholder g e p lbl b,
  ~ In (p, lbl, b) (g_out g) -> In (p, lbl, b) (g_out (gstep B placeholder g e)) ->
  is_final B p g = true /\ lbl = label B placeholder p g.
Proof.
  intros B placeholder g e p lbl b NI I.
  destruct (gstep_out B placeholder g e) as [E|(q & c & E & F)]; rewrite E in I; [contradiction|].
  apply in_app_or in I. destruct I as [I|[I|[]]]; [contradiction|]. inversion I; subst. auto.
Qed.
(* per pipe: delivered ++ held ++ queued = arrivals, i.e. release in arrival order, nothing lost or duplicated,
   for schedules where no identity event lands between a failed take_finalized_held and the queue pop *)
Theorem C11_gate_fifo : forall (B : Type) placeholder p h,
  detach_free B p h = true -> no_final_in_window B placeholder (gate0 B) h = true ->
  let g := grun B placeholder h in
  arrivals B p h = delivered B p g ++ of_pipe p (g_held g) ++ of_pipe p (g_queue g).
Proof.
  intros B placeholder p h D W g. assert (fifo_inv B p [] (gate0 B)) as I0 by (split; [reflexivity|discriminate]).
  destruct (fifo_run B placeholder p [] _ h I0 D W) as [I _]. exact I.
Qed.
(* an identity event inside that window lets a pipe's second message overtake its held first one *)
Theorem C11_gate_fifo_window_refuted :
  exists h p, detach_free N p h = true /\
              arrivals N p h = [10; 20] /\
              delivered N p (grun N placeholder_id h) = [20; 10] /\
              forall lbl b, In (p, lbl, b) (g_out (grun N placeholder_id h)) -> lbl = [65].
Proof.
  exists [GAttach 1 None false; GArrive 1 10; GCheck 0; GPop 1;      (* first message held: pipe pending *)
          GArrive 1 20; GCheck 0;                                        (* nothing releasable: recv goes on to pop *)
          GAnnounce 1 (Some [65]) true;                                    (* identity event lands here *)
          GPop 1;                                                          (* second message delivered first *)
          GCheck 1],                                                       (* next recv: the held first message *)
         1.
  split; [reflexivity|]. split; [reflexivity|]. split; [reflexivity|].
  vm_compute. intros lbl b [H|[H|[]]]; inversion H; reflexivity.
Qed.

(* ---- envelopes: every payload (any number of frames, empty frames anywhere), AUTO_DELIMITER default ---- *)
Theorem C11_envelope_roundtrip :
  (* DEALER -> ROUTER *)
  (forall pt id payload, payload <> [] -> pt <> Some TRouter ->
     one_message (dealer_prepare false payload) /\
     router_recv false pt id (dealer_prepare false payload) = (true, id) :: norm_flags payload) /\
  (* ROUTER -> DEALER (send_multipart; strategy Default or Dealer): for EVERY flag pattern the application left
     on the payload frames the contents arrive unchanged, as one message, flags = MORE on all but the last *)
  (forall s idm payload, s = SDefault \/ s = SDealer -> snd idm <> [] ->
     dealer_process_incoming false (router_wire s false idm payload) = norm_flags payload /\
     one_message (router_wire s false idm payload)) /\
  (* ROUTER -> DEALER (send part by part) *)
  (forall mandatory conn hint m id u s o payload,
     id <> [] -> fget id m = Some (u, s, o) -> conn u = COk -> payload <> [] -> more_ok payload ->
     dealer_process_incoming false
       (wire_to u (snd (router_send_parts mandatory false conn hint (m, None) ((true, id) :: payload)))) = payload) /\
  (* REQ -> ROUTER *)
  (forall pt id msg, pt <> Some TRouter -> router_recv false pt id (req_send msg) = [(true, id); no_more msg]) /\
  (* ROUTER -> REQ (send_multipart; strategy Req) *)
  (forall manual idm payload,
     req_recv_multipart (router_wire SReq manual idm payload) = norm_flags payload /\
     one_message (router_wire SReq manual idm payload)) /\
  (* REQ -> REP -> REQ *)
  (forall msg, rep_extract (req_send msg) = ([delim true], [no_more msg])) /\
  (forall reply, reply <> [] -> req_recv_multipart (rep_send_multipart [delim true] reply) = norm_flags reply) /\
  (* DEALER -> REP -> DEALER *)
  (forall payload, payload <> [] -> rep_extract (dealer_prepare false payload) = ([delim true], norm_flags payload)) /\
  (forall reply, reply <> [] -> dealer_process_incoming false (rep_send_multipart [delim true] reply) = norm_flags reply) /\
  (* DEALER <-> DEALER *)
  (forall payload, payload <> [] -> dealer_process_incoming false (dealer_prepare false payload) = norm_flags payload).
Proof.
  exact (conj (fun pt id payload H P => conj (dealer_prepare_one_message false payload H) (rt_dealer_router pt id payload H P))
        (conj (fun s idm payload S I => conj (rt_router_dealer s idm payload S I) (router_wire_auto_one_message s idm payload S))
        (conj rt_router_parts_dealer
        (conj rt_req_router (conj (fun manual idm payload => conj (rt_router_req manual idm payload) (router_wire_req_one_message manual idm payload)) (conj rt_req_rep (conj rt_rep_req (conj rt_dealer_rep (conj rt_rep_dealer rt_dealer_dealer))))))))).
Qed.
(* what send_multipart does to the flags: whatever the application left on identity and payload frames, the wire
   carries MORE on every frame but the last (so it is one message whenever it is non-empty) *)
Theorem C11_router_wire_flags : forall s manual idm payload,
  more_ok (router_wire s manual idm payload) /\
  (strat_prepare s manual idm payload <> [] -> one_message (router_wire s manual idm payload)).
Proof. exact (fun s manual idm payload => conj (more_ok_norm _) (one_message_norm _)). Qed.
(* frame contents survive flag normalisation *)
Theorem C11_normalisation_keeps_contents : forall l,
  datas (norm_flags l) = datas l /\ datas (clear_last l) = datas l.
Proof. exact (fun l => conj (datas_norm l) (datas_clear l)). Qed.
(* the zero-frame payload is not representable: it arrives as one empty frame *)
Theorem C11_empty_payload_becomes_one_empty_frame :
  (forall pt id, pt <> Some TRouter -> router_recv false pt id (dealer_prepare false []) = [(true, id); (false, [])]) /\
  rep_send_multipart [delim true] [] = [delim true; delim false].
Proof. exact (conj rt_dealer_router_nil rt_rep_nil). Qed.
(* REQ.recv() hands out only the first frame of a reply *)
Theorem C11_req_recv_first_frame_only : forall manual idm x t,
  req_recv (router_wire SReq manual idm (x :: t)) = hd (false, []) (norm_flags (x :: t)).
Proof.
  intros manual idm x t. rewrite router_wire_req. unfold req_recv.
  change (req_process_incoming (delim true :: norm_flags (x :: t))) with (norm_flags (x :: t)).
  destruct (norm_flags (x :: t)); reflexivity.
Qed.

(* ---- AUTO_DELIMITER off at one or both ends: stated as what they are ---- *)
Theorem C11_raw_passthrough :
  (forall pt id payload, datas (router_recv true pt id (dealer_prepare true payload)) = id :: datas payload) /\
  (forall idm payload, dealer_process_incoming true (router_wire SDealer true idm payload) = norm_flags payload) /\
  (forall idm x t, dealer_process_incoming true (router_wire SDefault true idm (x :: t)) = with_more idm :: norm_flags (x :: t)).
Proof. exact (conj raw_dealer_router_datas (conj raw_router_dealer_strategy raw_router_default_strategy)). Qed.
Theorem C11_mixed_dealer_manual_router_auto : forall pt id f t, pt <> Some TRouter ->
  (fempty f = false -> datas (router_recv false pt id (dealer_prepare true (f :: t))) = id :: datas (f :: t)) /\
  (fempty f = true -> datas (router_recv false pt id (dealer_prepare true (f :: t))) = id :: datas t).
Proof. intros pt id f t P. rewrite (mixed_dealer_manual_router_auto_datas pt id f t P). split; intros ->; reflexivity. Qed.
Theorem C11_mixed_router_manual_dealer_auto : forall idm payload,
  dealer_process_incoming false (router_wire SDealer true idm payload) =
  match norm_flags payload with
  | [] => []
  | f0 :: rest => if fempty f0 then rest
                  else match rest with [] => [] | f1 :: rest' => if fempty f1 then rest' else rest end
  end.
Proof. exact mixed_router_manual_dealer_auto. Qed.
Theorem C11_mixed_router_manual_dealer_auto_loses_first_frame :
  exists idm payload,
    dealer_process_incoming false (router_wire SDealer true idm payload) <> norm_flags payload.
Proof. exists (true, [65]), [(true, [97]); (false, [98])]. vm_compute. discriminate. Qed.
(* intended manual usage: the application supplies the delimiter itself *)
Theorem C11_manual_router_with_app_delimiter : forall idm body,
  dealer_process_incoming false (router_wire SDealer true idm (delim true :: body)) = norm_flags body.
Proof. intros idm body. rewrite mixed_router_manual_dealer_auto. destruct body; reflexivity. Qed.
(* ROUTER manual with the Default strategy (peer type unknown, e.g. inproc) -> DEALER auto *)
Theorem C11_mixed_router_manual_default_strategy : forall idm payload, snd idm <> [] ->
  dealer_process_incoming false (router_wire SDefault true idm payload) =
  match norm_flags payload with [] => [] | f1 :: rest' => if fempty f1 then rest' else f1 :: rest' end.
Proof.
  intros idm payload I. unfold router_wire, strat_prepare, latch_encode. destruct payload as [|x t].
  - simpl. unfold fempty, no_more. simpl. destruct (snd idm); [congruence|reflexivity].
  - cbn [nonnil]. rewrite norm_flags_cons by discriminate. unfold dealer_process_incoming.
    rewrite !fempty_with_more, (fempty_false idm I).
    simpl negb. cbv iota. destruct (norm_flags (x :: t)) as [|f1 r]; [reflexivity|]. destruct (fempty f1); reflexivity.
Qed.

(* ---- ROUTER_MANDATORY and the send decision ---- *)
Theorem C11_mandatory_semantics : forall mandatory manual conn hint m idm payload,
  snd idm <> [] -> fget (snd idm) m = None ->
  router_send_multipart mandatory manual conn hint m (idm :: payload) = (m, if mandatory then SUnreachable else SDropped).
Proof. exact send_unknown. Qed.
Theorem C11_send_decision : forall mandatory manual conn hint m frames,
  let '(m', o) := router_send_multipart mandatory manual conn hint m frames in
  match o with
  | SInvalid => m' = m /\ (frames = [] \/ exists idm payload, frames = idm :: payload /\ snd idm = [])
  | SUnreachable =>
      mandatory = true /\ exists idm payload, frames = idm :: payload /\ snd idm <> [] /\
        ((fget (snd idm) m = None /\ m' = m) \/
         (exists u s o, fget (snd idm) m = Some (u, s, o) /\
            ((conn u = CGone /\ m' = remove_peer_by_identity hint (snd idm) m) \/ (conn u = CClosed /\ m' = m))))
  | SDropped =>
      mandatory = false /\ exists idm payload, frames = idm :: payload /\ snd idm <> [] /\
        ((fget (snd idm) m = None /\ m' = m) \/
         (exists u s o, fget (snd idm) m = Some (u, s, o) /\
            ((conn u = CGone /\ m' = remove_peer_by_identity hint (snd idm) m) \/ (conn u = CClosed /\ m' = m))))
  | SSent u w =>
      m' = m /\ exists idm payload s o, frames = idm :: payload /\ snd idm <> [] /\
        fget (snd idm) m = Some (u, s, o) /\ conn u = COk /\ w = router_wire s manual idm payload
  end.
Proof.
  intros mandatory manual conn hint m frames.
  unfold router_send_multipart. destruct frames as [|idm payload]; [simpl; auto|].
  destruct (snd idm) as [|x r] eqn:E; [simpl; split; [reflexivity|right; eauto]|].
  rewrite <- E. assert (snd idm <> []) as NI by (rewrite E; discriminate).
  destruct (fget (snd idm) m) as [[[u s] o]|] eqn:F.
  - destruct (conn u) eqn:C.
    1, 2: destruct mandatory; (split; [reflexivity|]); exists idm, payload; repeat split; auto; right; exists u, s, o; auto.
    split; [reflexivity|]. exists idm, payload, s, o. auto.
  - destruct mandatory; (split; [reflexivity|]); exists idm, payload; repeat split; auto.
Qed.
(* maps and send together: the message goes to the connection of the live pipe that announced the identity *)
Theorem C11_send_reaches_true_peer : forall uri_of placeholder h p i st mandatory manual conn hint b payload,
  distinct_hist placeholder h = true ->
  sget p (spec_run placeholder h) = Some (i, st) -> i <> [] -> conn (uri_of p) = COk ->
  router_send_multipart mandatory manual conn hint (run uri_of placeholder h) ((b, i) :: payload) =
  (run uri_of placeholder h, SSent (uri_of p) (router_wire st manual (b, i) payload)).
Proof.
  intros uri_of placeholder h p i st mandatory manual conn hint b payload D S I C.
  destruct (lookup_true_peer_holds uri_of placeholder h D) as (TP & _).
  destruct (TP _ _ _ S) as [_ F]. apply (send_known mandatory manual conn hint _ (b, i) payload _ st p); assumption.
Qed.

(* part-wise send(): fine for a known identity (above) and with ROUTER_MANDATORY; without it an unknown
   identity is NOT a silent drop of the message *)
Theorem C11_parts_unknown_mandatory : forall manual conn hint m id, id <> [] -> fget id m = None ->
  router_send_part true manual conn hint (m, None) (true, id) = ((m, None), PUnreachable).
Proof. exact (fun manual conn hint m id => part_unknown true manual conn hint m id). Qed.
(* the next part is taken for a new identity frame; here the rest of the message is delivered to peer "B"
   although addressed to "Z" *)
Theorem C11_parts_unknown_misroute_refuted :
  exists m conn unknown idB uB oB x,
    fget unknown m = None /\ fget idB m = Some (uB, SDefault, oB) /\ unknown <> idB /\
    snd (router_send_parts false false conn 0 (m, None) [(true, unknown); (true, idB); (false, x)]) =
      [PDropped; PSent uB [(true, idB); delim true]; PSent uB [(false, x)]] /\
    dealer_process_incoming false
      (wire_to uB (snd (router_send_parts false false conn 0 (m, None) [(true, unknown); (true, idB); (false, x)]))) =
      [(false, x)].
Proof.
  exists (add_peer [66] 1 1 rm_empty), (fun _ => COk), [90], [66], 1, 1, [120]. repeat split; try reflexivity. discriminate.
Qed.
(* ... and with a single payload part the drop is not silent: the payload part is rejected *)
Theorem C11_parts_unknown_not_silent_refuted :
  exists m conn unknown x,
    fget unknown m = None /\
    snd (router_send_parts false false conn 0 (m, None) [(true, unknown); (false, x)]) = [PDropped; PInvalid].
Proof. exists (add_peer [66] 1 1 rm_empty), (fun _ => COk), [90], [120]. split; reflexivity. Qed.
(* part-wise send (and the Default strategy) towards a REQ peer: the REQ application sees identity + delimiter *)
Theorem C11_parts_to_req_exposes_envelope : forall mandatory conn hint m id u s o payload,
  id <> [] -> fget id m = Some (u, s, o) -> conn u = COk -> payload <> [] -> more_ok payload ->
  req_recv_multipart (wire_to u (snd (router_send_parts mandatory false conn hint (m, None) ((true, id) :: payload)))) =
  (true, id) :: delim true :: payload.
Proof.
  intros mandatory conn hint m id u s o payload I F C H M.
  rewrite (parts_known_wire mandatory false conn hint m id u s o) by assumption.
  destruct id as [|x r]; [congruence|]. reflexivity.
Qed.
(* the same wire form results from send_multipart whenever the ROUTER does not know that the peer is a REQ
   (Default strategy: always over inproc, where no socket type is announced) *)
Theorem C11_default_strategy_to_req_exposes_envelope : forall idm payload, snd idm <> [] ->
  req_recv_multipart (router_wire SDefault false idm payload) = router_wire SDefault false idm payload /\
  router_wire SDefault false idm payload =
    with_more idm :: match payload with [] => [delim false] | _ => delim true :: norm_flags payload end.
Proof. exact (fun idm payload I => conj (default_strategy_to_req idm payload I) (router_wire_auto SDefault idm payload (or_introl eq_refl))). Qed.
Theorem C11_parts_to_req_refuted :
  exists m conn id u o payload,
    fget id m = Some (u, SReq, o) /\
    req_recv_multipart (wire_to u (snd (router_send_parts false false conn 0 (m, None) ((true, id) :: payload)))) <> payload.
Proof.
  exists (update_peer_identity 1 [65] 1 (Some TReq) rm_empty), (fun _ => COk), [65], 1, 1, [(false, [120])].
  split; [reflexivity|]. vm_compute. discriminate.
Qed.

(* non-vacuity: a history with reconnect under the same identity satisfies the distinctness premise, the maps
   compute, and a payload with empty frames at both ends survives DEALER -> ROUTER -> DEALER *)
Example C11_example :
  let h := [EAttach 1 None; EAnnounce 1 (Some [65]) (Some TDealer); EAttach 2 None; EAnnounce 2 None (Some TReq);
            EDetach 1; EAttach 3 None; EAnnounce 3 (Some [65]) (Some TDealer)] in
  let m := run (fun p => p + 100) placeholder_id h in
  let payload := [(true, []); (true, [1; 2]); (false, [])] in
  distinct_hist placeholder_id h = true /\
  fget [65] m = Some (103, SDealer, 3) /\ fget (placeholder_id 2) m = Some (102, SReq, 2) /\ rget 1 m = None /\
  placeholder_id 2 = [112; 105; 112; 101; 58; 50] /\ placeholder_id 1234 = [112; 105; 112; 101; 58; 49; 50; 51; 52] /\
  router_recv false (Some TDealer) [65] (dealer_prepare false payload) = (true, [65]) :: payload /\
  dealer_process_incoming false (router_wire SDealer false (false, [65]) (map no_more payload)) = payload /\
  more_ok payload /\
  (* gate: first message races ahead of the identity event; hypotheses of C11_gate_labelled / C11_gate_fifo hold *)
  let gh := [GAttach 1 None false; GArrive 1 7; GCheck 0; GPop 1; GAnnounce 1 (Some [65]) true; GArrive 1 8;
             GCheck 1; GCheck 0; GPop 1] in
  handshaking_pipe N placeholder_id 1 [65] (gate0 N) gh = true /\
  detach_free N 1 gh = true /\ no_final_in_window N placeholder_id (gate0 N) gh = true /\
  g_out (grun N placeholder_id gh) = [(1, [65], 7); (1, [65], 8)].
Proof. vm_compute. repeat split. Qed.
