(* C05 - handshakes converge, agree, and give one verdict on compatibility. *)
From RZ Require Import Base.Prelude Base.Stepper Base.Kahn Model.Codec Proofs.CodecProofs Model.Engine
  Proofs.EngineProofs Model.Pair Proofs.HandshakeProofs.
Local Open Scope N_scope.

(* generic: in a two-node network of prefix-monotone stream functions all quiescent states reachable by
   any delivery schedule (any order, any fragment sizes, one byte at a time included) coincide *)
Theorem C05_kahn_confluence : forall (FA FB : bytes -> bytes),
  (forall a d, prefix (FA a) (FA (a ++ d))) -> (forall a d, prefix (FB a) (FB (a ++ d))) ->
  forall ia ib ia' ib', Reach FA FB ia ib -> Kahn.quiescent FA FB ia ib ->
  Reach FA FB ia' ib' -> Kahn.quiescent FA FB ia' ib' -> ia = ia' /\ ib = ib'.
Proof. exact kahn_confluence. Qed.

(* two engines, ANY pair of configurations, ANY two delivery schedules that leave both channels empty:
   same delivered bytes, same protocol states, same emitted actions on both sides *)
Theorem C05_schedule_independent : forall ca cb xs ys,
  drained (prun ca cb xs) = true -> drained (prun ca cb ys) = true ->
  let s1 := prun ca cb xs in let s2 := prun ca cb ys in
  da s1 = da s2 /\ db s1 = db s2 /\ same_core (pa s1) (pa s2) /\ same_core (pb s1) (pb s2) /\
  oa s1 = oa s2 /\ ob s1 = ob s2.
Proof.
  intros ca cb xs ys D1 D2.
  exact (pair_schedule_independent ca cb _ _ (PInv_run ca cb xs) (PInv_run ca cb ys) D1 D2).
Qed.

(* no deadlock of the staged greeting: while bytes are in flight a delivery makes progress *)
Theorem C05_progress : forall ca cb s, drained s = false ->
  exists x, (length (da (pstep ca cb s x)) + length (db (pstep ca cb s x)) > length (da s) + length (db s))%nat.
Proof.
  (* deliver the first byte of a channel that is not empty *)
  intros ca cb s. unfold drained. destruct (ab s) as [|y l] eqn:Ea.
  - (* the channel to A *)
    destruct (ba s) as [|z l'] eqn:Eb; [discriminate|]. intros _. exists (ToA 1 0). cbn [pstep]. rewrite Eb.
    cbn [firstn]. destruct (e_net ca (pa s) [z] 0). cbn [da db]. rewrite app_length. cbn. lia.
  - (* the channel to B *)
    intros _. exists (ToB 1 0). cbn [pstep]. rewrite Ea.
    cbn [firstn]. destruct (e_net cb (pb s) [y] 0). cbn [da db]. rewrite app_length. cbn. lia.
Qed.

(* convergence and agreement, for every schedule, on the grid {11 wire socket types}^2 x {NULL, PLAIN ok,
   PLAIN wrong password, NULL vs PLAIN, PLAIN vs NULL} x {no routing ids, 1-byte and 255-byte ids}, connector
   vs listener: compatible settings => both reach Data, no error, and each side's HandshakeComplete carries the
   other's socket type and routing id; incompatible mechanism / credentials / socket types => nobody completes
   and a side fails *)
Theorem C05_converge_grid : forall tA tB mc ids xs,
  In (tA, tB, mc, ids) grid ->
  let '(ca, cb) := grid_pair tA tB mc ids in
  drained (prun ca cb xs) = true -> good_outcome tA tB mc ids (outcome (prun ca cb xs)) = true.
Proof.
  intros tA tB mc ids xs Hg%check_pair_grid. unfold check_pair in Hg.
  destruct (grid_pair tA tB mc ids) as [ca cb]. intros Hd. apply andb_true_iff in Hg as [Hde Hgo].
  rewrite (pair_outcome_independent ca cb _ (eager ca cb EAGER_ROUNDS p_init)); auto.
  - apply PInv_run.
  - apply PInv_eager, PInv_init.
Qed.
Theorem C05_grid_eager_drains : forall tA tB mc ids,
  In (tA, tB, mc, ids) grid ->
  let '(ca, cb) := grid_pair tA tB mc ids in drained (eager ca cb EAGER_ROUNDS p_init) = true.
Proof.
  intros tA tB mc ids Hg%check_pair_grid. unfold check_pair in Hg.
  destruct (grid_pair tA tB mc ids) as [ca cb]. apply andb_true_iff in Hg. tauto.
Qed.

(* one verdict: ZMTP/3 gives exactly the ZMTP/2 table's verdict on all 121 wire type pairs ... *)
Theorem C05_v3_verdict_is_v2_verdict : forall a b, In a all_types -> In b all_types -> compat_v3 a b = compat_v2 a b.
Proof. exact v3_verdict_is_v2_verdict. Qed.
Theorem C05_verdict_symmetric : forall a b, In a all_types -> In b all_types -> compat_v2 a b = compat_v2 b a.
Proof. exact verdict_symmetric. Qed.
(* ... and inproc gives the same verdict on the 8 implemented socket types, except DEALER-DEALER *)
Theorem C05_one_verdict_outside : forall a b, In a rzmq_types -> In b rzmq_types -> is_dealer_dealer a b = false ->
  compat_v3 a b = compat_v2 a b /\ compat_inproc a b = compat_v2 a b.
Proof. exact one_verdict_outside. Qed.
Theorem C05_one_verdict_refuted :
  compat_v3 s_DEALER s_DEALER = true /\ compat_v2 s_DEALER s_DEALER = true /\ compat_inproc s_DEALER s_DEALER = false.
Proof. vm_compute. repeat split. Qed.

Example C05_example :
  length grid = 1210%nat /\
  (let '(ca, cb) := grid_pair s_DEALER s_ROUTER 1 true in
   drained (prun ca cb [ToB 3 0; ToA 1 0; ToA 100 0; ToB 5 0; ToB 1000 0; ToA 1000 0; ToB 1000 0; ToA 1000 0; ToB 1000 0; ToA 1000 0]) = true).
Proof. split; vm_compute; reflexivity. Qed.
