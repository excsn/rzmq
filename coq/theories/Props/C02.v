(* C02 - a multipart message is delivered as exactly the frames that were sent, contiguous and in order, MORE on
   all but the last - read with recv_multipart() or frame by frame, whatever else happens on the socket; a message
   with more frames than supported is refused with an error or closes the connection: no panic, no truncation.

   The models are those of the code after the repairs of findings 1 (deregister_pipe cleared the cache), 2
   (DEALER/ROUTER recv_multipart ignored frame_recv_buffer) and 4 (ROUTER send_multipart kept the application's
   flags); their former witnesses are kept as `_witness` theorems and now deliver whole.  The classes that still
   fail are named `_refuted` (each is a known finding demonstrated against the real code by the correspondence run). *)
From RZ Require Import Base.Prelude Base.Stepper Model.Codec Proofs.CodecProofs Model.Engine Proofs.EngineProofs
  Proofs.EngineLimit Model.RouterMap Model.Envelope Model.FrameBatch Model.SendFlags Model.Ingress
  Model.Balancer Proofs.FrameBatchProofs Proofs.EnvelopeProofs Proofs.SendFlagsProofs Proofs.IngressProofs Proofs.WireBridge.
Local Open Scope N_scope.

(* PULL / SUB (AnonymousIngressEngine), for EVERY queue discipline `qo` and every history mixing Recv and
   RecvMultipart with Enqueue / Register / Deregister of any pipe (the socket itself is not closed meanwhile):
   everything returned, followed by what is still cached, is exactly the concatenation of the batches taken off the
   queue - frames adjacent, in order, flags untouched - and no call panics. *)
Theorem C02_recv_contiguous : forall (Q : Type) (qo : qops Q) os st st' es,
  anon_run qo os st = (st', es) -> cache_inv (snd st) -> no_close os -> Forall good (popped es) ->
  cache_frames (snd st) ++ popped_frames es = returned es ++ cache_frames (snd st') /\ has_panic es = false.
Proof.
  intros Q qo os st st' es H I Hc Hg. exact (anon_accounting qo os st st' es H I (no_close_no_drop qo os st Hc) Hg).
Qed.
(* with close() in the history: the same, as long as the socket is not closed in the middle of a message *)
Theorem C02_recv_contiguous_until_close : forall (Q : Type) (qo : qops Q) os st st' es,
  anon_run qo os st = (st', es) -> cache_inv (snd st) -> no_drop qo os st = true -> Forall good (popped es) ->
  cache_frames (snd st) ++ popped_frames es = returned es ++ cache_frames (snd st') /\ has_panic es = false.
Proof. exact @anon_accounting. Qed.

(* histories that only use recv_multipart: every result is one whole batch *)
Theorem C02_recv_multipart_only : forall (Q : Type) (qo : qops Q) os q st' es,
  anon_run qo os (q, None) = (st', es) -> no_recv os ->
  snd st' = None /\ returned es = popped_frames es /\ has_panic es = false /\
  Forall (fun e => match e with EvRet (RBatch fs) (Some (_, b)) => fs = fb_list b
                              | EvRet (RBatch _) None => False | _ => True end) es.
Proof. exact @anon_multipart_only. Qed.

(* mixed style on PULL / SUB: recv_multipart after some recv()s returns the whole unread remainder *)
Theorem C02_recv_multipart_remainder : forall (Q : Type) (qo : qops Q) (q : Q) (d : list frame),
  d <> [] -> more_ok d -> (length d <= 255)%nat ->
  anon_recv_multipart qo (q, Some d) = ((q, None), EvRet (RBatch d) None).
Proof.
  intros Q qo q d Hn M L. unfold anon_recv_multipart. rewrite (take_message_more_ok d Hn M).
  destruct (extend_new d L) as (bt & -> & ->). reflexivity.
Qed.

(* a peer detaching leaves the half-read message alone (repaired finding 1) ... *)
Theorem C02_deregister_keeps_half_read : forall (Q : Type) (qo : qops Q) (q : Q) c p,
  anon_step qo (ODeregister p) (q, c) = ((qo_dereg qo p q, c), EvUnit).
Proof. reflexivity. Qed.
(* ... its former witness: peer 1 sent A = [10+M, 11+M, 12]; the application read 10; idle peer 3 detaches;
   11 and 12 are still delivered, then B *)
Theorem C02_recv_contiguous_deregister_witness :
  let '(st', es) := anon_run rpq_ops wit_deregister (q_new, None) in
  popped_frames es = [fr true 10; fr true 11; fr false 12; fr false 20] /\
  returned es = popped_frames es /\ cache_frames (snd st') = [].
Proof. vm_compute. auto. Qed.

(* DEALER / ROUTER (`frame_recv_buffer`), every queue discipline, every envelope function `process`, EVERY history:
   any mix of recv and recv_multipart, attach / detach / close meanwhile (repaired finding 2) *)
Theorem C02_recv_contiguous_addressed : forall (Q : Type) (qo : qops Q) process os st st' es,
  fbuf_run qo process os st = (st', es) -> buf_inv (snd st) -> Forall (pgood process) es ->
  cache_frames (snd st) ++ processed_frames process es = returned es ++ cache_frames (snd st') /\ has_panic es = false.
Proof. exact @fbuf_accounting. Qed.
Theorem C02_recv_multipart_remainder_addressed : forall (Q : Type) (qo : qops Q) process (q : Q) (d : list frame),
  d <> [] -> (length d <= 255)%nat ->
  fbuf_recv_multipart qo process (q, Some d) = ((q, None), EvRet (RBatch d) None).
Proof. exact @fbuf_recv_multipart_remainder. Qed.
(* former witness: recv() -> frame 1 of A, recv_multipart() -> the rest of A (used to be B), recv() -> B *)
Theorem C02_recv_contiguous_mixed_witness :
  let '(st', es) := fbuf_run rpq_ops (fun _ b => Ok b) wit_mixed (q_new, None) in
  processed_frames (fun _ b => Ok b) es = [fr true 10; fr true 11; fr false 12; fr false 20] /\
  returned es = processed_frames (fun _ b => Ok b) es.
Proof. vm_compute. auto. Qed.

(* REQ / REP recv(): a single-frame payload comes through; of a multi-frame payload only frame 1 (MORE still set) *)
Theorem C02_reqrep_recv_single : forall f : frame,
  rep_recv_fb (FTwo (delim true) (no_more f)) = Ok (no_more f) /\
  req_recv_fb (FTwo (delim true) (no_more f)) = Ok (no_more f).
Proof. intros [m d]. vm_compute. auto. Qed.
Theorem C02_reqrep_recv_truncates_refuted :
  rep_recv_fb wit_multi_request = Ok (fr true 1) /\
  (exists b, rep_recv_multipart_fb wit_multi_request = Ok b /\ fb_list b = [fr true 1; fr true 2; fr false 3]) /\
  req_recv_fb wit_multi_request = Ok (fr true 1) /\
  (exists b, req_recv_multipart_fb wit_multi_request = Ok b /\ fb_list b = [fr true 1; fr true 2; fr false 3]).
Proof. vm_compute. repeat split; eauto. Qed.

(* whatever one send_multipart call hands to the connection is, at list level, the envelope function of the socket *)
Theorem C02_send_sound : forall k v w, send_multipart_of k v = Ok (SRWire w) -> w = wire_of k v.
Proof. exact send_sound. Qed.
(* it carries MORE on all but the last frame, whatever flags the application left on the frames - every sender,
   ROUTER included (repaired finding 4) *)
Theorem C02_wire_is_one_message : forall k v w, send_multipart_of k v = Ok (SRWire w) -> more_ok w.
Proof. exact wire_is_one_message. Qed.
(* former witness: ROUTER send_multipart([id, a, b]) with MORE unset on a is one message on the wire *)
Theorem C02_wire_is_one_message_router_witness :
  exists w, send_multipart_of (SndRouter false false (Some SDealer)) router_unnormalised_witness = Ok (SRWire w) /\
            wire_split w = [[(true, [65]); (true, []); (true, [1]); (false, [2])]].
Proof. eexists. split; vm_compute; reflexivity. Qed.
(* every frame the application passed is on the wire, in order, after the envelope frames *)
Theorem C02_send_never_truncates : forall k v w,
  send_multipart_of k v = Ok (SRWire w) ->
  exists env, datas w = env ++ datas (match k with SndRouter _ _ _ => tl v | _ => v end).
Proof. exact send_never_truncates. Qed.
(* hence (data_phase_delivers) the peer's engine reassembles every such wire into exactly one batch with exactly
   those frames, however the byte stream is cut *)
Theorem C02_wire_reassembled : forall cfg g ws cs,
  e_phase (g_st g) = PData -> e_partial (g_st g) = [] -> g_acc g = [] ->
  Forall (sendable cfg) ws ->
  concat (map fst cs) = concat (map enc_codec (concat (map (map to_codec) ws))) ->
  let '(g', o) := nets cfg g cs in
  o = map ODeliver (map (map to_codec) ws) /\ g_st g' = g_st g /\ g_acc g' = [].
Proof. exact wire_reassembled. Qed.

(* a message sent through PUSH send() part by part stays together only while the socket has a single peer *)
Theorem C02_push_parts_single_peer : forall p (fs : list frame),
  push_parts_routed (mkBal [p] 0) fs = (map (fun f => (p, f)) fs, mkBal [p] 0).
Proof.
  intros p fs. unfold push_parts_routed. rewrite picks_single. f_equal.
  induction fs as [|f t IH]; [reflexivity|]. cbn [length repeat combine map]. rewrite IH. reflexivity.
Qed.
Theorem C02_push_parts_spread_refuted :
  fst (push_parts_routed (mkBal [1; 2] 0) [(true, [10]); (true, [11]); (false, [12])])
  = [(1, (true, [10])); (2, (true, [11])); (1, (false, [12]))].
Proof. vm_compute. reflexivity. Qed.

(* FrameBatch is a list that panics exactly when it would hold more than 255 frames *)
Theorem C02_framebatch_push : forall (b : fb frame) x, fb_wf b ->
  (fb_push b x = Panic <-> length (fb_list b) = 255%nat) /\
  (forall b', fb_push b x = Ok b' -> fb_list b' = fb_list b ++ [x]).
Proof.
  intros b x _. pose proof (fb_push_case b x) as C. destruct (fb_push b x) as [b1|].
  - destruct C as [L N]. split; [split; [discriminate | contradiction] | intros b' [= <-]; exact L].
  - split; [tauto | intros b' [=]].
Qed.
Theorem C02_framebatch_from_vec : forall (xs : list frame),
  (fb_from_vec xs = Panic <-> (255 < length xs)%nat) /\ (forall b, fb_from_vec xs = Ok b -> fb_list b = xs).
Proof.
  intros xs. rewrite <- vec_max_eq. pose proof (fb_from_vec_builds xs) as C. unfold builds in C.
  destruct (fb_from_vec xs) as [b|].
  - destruct C as [L B]. split; [split; [discriminate | lia] | intros b' [= <-]; exact L].
  - split; [tauto | intros b' [=]].
Qed.
Theorem C02_framebatch_insert : forall i (x : frame) b,
  (length (fb_list b) = 255%nat -> fb_insert i x b = Panic) /\
  (forall b', fb_insert i x b = Ok b' -> fb_list b' = firstn i (fb_list b) ++ x :: skipn i (fb_list b)).
Proof.
  intros i x b. pose proof (fb_insert_case i x b) as C. destruct (fb_insert i x b) as [b1|].
  - destruct C as (L & _ & N). split; [contradiction | intros b' [= <-]; exact L].
  - split; [reflexivity | intros b' [=]].
Qed.

(* sender: below the limit (envelope frames included) no sending path panics ... *)
Theorem C02_frame_limit_sender_ok : forall k v, (wire_len_bound k v <= 255)%nat -> send_multipart_of k v <> Panic.
Proof.
  intros k v L H. rewrite <- vec_max_eq in L. pose proof (send_exact k v) as S. rewrite H in S.
  pose proof (frames_needed_bound k v). pose proof vec_max_big. unfold answers in S. lia.
Qed.
(* ... but `Socket::send_multipart` of more than 255 frames panics on every socket type (FrameBatch::from), *)
Theorem C02_frame_limit_sender_refuted : forall k v, (255 < length v)%nat -> send_multipart_of k v = Panic.
Proof. exact api_panics_beyond_255. Qed.
(* and so do: DEALER with the automatic delimiter at exactly 255 frames, ROUTER to a DEALER / unknown peer at
   identity + 254, REP when prefix + payload exceed 255, DEALER send() part by part at the 256th part *)
Theorem C02_frame_limit_dealer_255_refuted : forall v : list frame,
  length v = 255%nat -> send_multipart_of (SndDealer false) v = Panic.
Proof.
  intros v L. rewrite <- vec_max_eq in L. pose proof vec_max_big. apply send_panics. unfold frames_needed.
  cbn [res_of res_frames]. rewrite dealer_prepare_length.
  destruct v; cbn [length] in *; lia.
Qed.
Theorem C02_frame_limit_router_255_refuted : forall mandatory s (v : list frame),
  s = SDealer \/ s = SDefault -> length v = 255%nat -> (forall (idm : frame) t, v = idm :: t -> snd idm <> []) ->
  send_multipart_of (SndRouter mandatory false (Some s)) v = Panic.
Proof.
  intros mandatory s v Hs L Hid. rewrite <- vec_max_eq in L. apply send_panics. unfold frames_needed.
  destruct v as [|idm payload]; [discriminate|].
  specialize (Hid idm payload eq_refl). cbn [res_of]. destruct (snd idm); [congruence|].
  cbn [res_frames]. rewrite norm_flags_length, strat_prepare_length. destruct Hs as [-> | ->]; cbn [length] in *; lia.
Qed.
Theorem C02_frame_limit_rep_refuted : forall prefix v : list frame,
  (length prefix <= 255)%nat -> (length v <= 255)%nat -> v <> [] -> (255 < length prefix + length v)%nat ->
  send_multipart_of (SndRep prefix) v = Panic.
Proof.
  intros prefix v _ _ _ L. rewrite <- vec_max_eq in L. apply send_panics. unfold frames_needed. cbn [res_of res_frames].
  rewrite rep_send_multipart_length. lia.
Qed.
Theorem C02_frame_limit_dealer_parts_refuted : forall manual (fs : list frame) f,
  length fs = 255%nat -> Forall (fun f => fmore f = true) fs ->
  dealer_send_parts manual None (fs ++ [f]) = Panic.
Proof. exact dealer_parts_256_panics. Qed.
(* whenever a send does not panic, nothing is truncated (C02_send_never_truncates): whole message or nothing *)

(* receiver: a wire of more than 255 frames (parts sent one by one, or a foreign peer) is answered with PeerError at
   its 256th frame; the messages before it are delivered, nothing of it is (no truncated batch); the engine closes.
   (That the engine never panics on any input is C07_no_panic.) *)
Theorem C02_overlong_wire_refused : forall cfg g ws (w : list frame) tail cs,
  e_phase (g_st g) = PData -> e_partial (g_st g) = [] -> g_acc g = [] ->
  Forall (sendable cfg) ws ->
  (MAX_FRAMES < length w)%nat -> wire_admitted cfg w ->
  Forall (fun f => fmore f = true) (firstn MAX_FRAMES w) ->
  concat (map fst cs) = concat (map enc_codec (concat (map (map to_codec) ws))) ++
                        concat (map enc_codec (map to_codec w)) ++ tail ->
  let '(g', o) := nets cfg g cs in
  o = map ODeliver (map (map to_codec) ws) ++ [OErr EProto] /\ e_phase (g_st g') = PClosed.
Proof. exact overlong_wire_refused. Qed.
(* ROUTER recv prepends the identity with FrameBatch::with_capacity(1 + n): fine up to 254 frames, ... *)
Theorem C02_router_recv_ok : forall manual pt id (raw : fb frame), fb_canon raw -> (length (fb_list raw) <= 254)%nat ->
  exists w, router_recv_fb manual pt id raw = Ok w /\ fb_list w = router_recv manual pt id (fb_list raw).
Proof.
  intros manual pt id raw C L. apply builds_ok; [apply router_recv_fb_builds, C|].
  exact (Nat.le_trans _ _ _ (router_recv_length manual pt id (fb_list raw)) (le_n_S _ _ L)).
Qed.
(* ... a 255-frame message that keeps all its frames (no delimiter to strip) panics in recv()/recv_multipart() *)
Theorem C02_router_recv_255_refuted : forall manual pt id (raw : fb frame) f0 rest,
  fb_canon raw -> fb_list raw = f0 :: rest -> length (fb_list raw) = 255%nat ->
  manual = true \/ pt = Some TRouter \/ fempty f0 = false ->
  router_recv_fb manual pt id raw = Panic.
Proof.
  intros manual pt id raw f0 rest C E L Hc. rewrite <- vec_max_eq in L.
  apply (builds_panic _ _ (router_recv_fb_builds manual pt id raw C)).
  rewrite E in *. rewrite (router_recv_length_kept manual pt id f0 rest Hc). cbn [length] in L. lia.
Qed.
(* inproc: whole messages pass the reader's accumulator unchanged; 256 parts sent one by one panic inside it *)
Theorem C02_inproc_whole_messages : forall (ms : list (list frame)),
  Forall (fun m => m <> [] /\ more_ok m /\ (length m <= 255)%nat) ms ->
  exists out, inproc_run fb_new ms = Ok (fb_new, out) /\ map fb_list out = ms.
Proof. exact inproc_whole_messages. Qed.
Theorem C02_inproc_256_parts_refuted : inproc_run fb_new (repeat [fr true 7] 256) = Panic.
Proof. exact (inproc_parts_panic (fr true 7) eq_refl 255 fb_new eq_refl). Qed.

(* non-vacuity: a history with two peers, mixed receive styles and a detach in the middle of message A satisfies the
   hypotheses of C02_recv_contiguous and delivers both messages whole *)
Example C02_example :
  let os := [ORegister 1; ORegister 2; OEnqueue 0%nat msgA; OEnqueue 1%nat msgB; ORecv; ODeregister 2;
             ORecvMultipart; ORecv; ORecv] in
  let '(st', es) := anon_run rpq_ops os (q_new, None) in
  forallb (fun o => match o with OClose => false | _ => true end) os = true /\
  forallb (fun b => (0 <? length (fb_list b))%nat) (popped es) = true /\
  returned es = [fr true 10; fr true 11; fr false 12; fr false 20] /\ popped_frames es = returned es.
Proof. vm_compute. auto. Qed.
