(* C07 - no byte stream from a peer can crash the engine or make it buffer without bound. *)
From RZ Require Import Base.Prelude Base.Stepper Model.Codec Proofs.CodecProofs Model.Engine
  Proofs.EngineProofs Model.Actor Proofs.ActorProofs Proofs.EngineSafety Model.HsTimer Proofs.HsTimerProofs.
Local Open Scope N_scope.

(* for every configuration and every history of inputs (arbitrary bytes in arbitrary chunks, ticks,
   application messages, close) the engine never reaches a panic site *)
Theorem C07_no_panic : forall cfg is g, Forall no_panic (snd (e_run cfg g is)).
Proof.
  intros cfg. induction is as [|i is IH]; intros g; [constructor|].
  rewrite e_run_cons. constructor; [apply e_input_no_panic|apply IH].
Qed.

(* the handler loop always terminates in a state that needs more bytes (fuel is never exhausted) *)
Theorem C07_no_out_of_fuel : forall cfg g d t, quiescent cfg (fst (e_net cfg g d t)).
Proof. exact e_net_quiescent. Qed.

(* every decode/protocol error closes the engine ... *)
Theorem C07_error_closes : forall cfg g d t,
  has_err (snd (e_net cfg g d t)) = true -> e_phase (g_st (fst (e_net cfg g d t))) = PClosed.
Proof. exact e_net_err_closed. Qed.

(* ... and a closed engine ignores everything (only close() still emits its two net actions) *)
Theorem C07_closed_absorbing : forall cfg g i,
  e_phase (g_st g) = PClosed ->
  e_phase (g_st (fst (e_input cfg g i))) = PClosed /\
  (forall x, In x (snd (e_input cfg g i)) -> match x with OCork _ | OClose _ => True | _ => False end).
Proof.
  intros cfg g i Hc. destruct i as [d t|m|t| |w]; cbn [e_input].
  - destruct (e_net_closed cfg g d t Hc) as [Ho Hp]. rewrite Ho. split; [exact Hp|]. intros x [].
  - unfold e_app. rewrite Hc. cbn. split; [exact Hc|]. intros x [].
  - unfold e_tick. rewrite Hc. cbn. split; [exact Hc|]. intros x [].
  - cbn. split; [reflexivity|]. intros x [<-|[<-|[]]]; exact I.
  - cbn. split; [exact Hc|]. intros x [].
Qed.

(* with MAXMSGSIZE = m >= 0 the undecoded leftover after every read is below max(64, 9 + m) *)
Theorem C07_buffer_bound : forall cfg g d t,
  g_inv g -> (0 <= c_maxsz cfg)%Z ->
  let g' := fst (e_net cfg g d t) in
  e_phase (g_st g') <> PClosed -> len (g_acc g') < buf_bound cfg.
Proof.
  intros cfg g d t Hinv Hm g' Hnc. apply (estep_need_bound cfg (g_st g') (g_acc g')); auto.
  - apply e_net_quiescent.
  - apply (e_input_inv cfg g (INet d t) Hinv).
Qed.
Theorem C07_invariant_reachable : forall cfg is t, g_inv (fst (e_run cfg (e_new t) is)).
Proof. intros cfg is t. exact (e_run_inv cfg is (e_new t) (fresh_engine_inv t)). Qed.

(* a frame of exactly the limit is accepted, anything above is rejected - both header forms *)
Theorem C07_limit_accept : forall m f rest,
  (0 <= m)%Z -> fits f -> len (f_payload f) = Z.to_N m ->
  dec_buffer m (enc_codec f ++ rest) = DFrame f (length (enc_codec f)).
Proof. exact limit_accepts_exact. Qed.
Theorem C07_limit_reject : forall m f rest,
  (0 <= m)%Z -> fits f -> Z.to_N m < len (f_payload f) ->
  dec_buffer m (enc_codec f ++ rest) = DErr.
Proof. exact limit_rejects_above. Qed.

(* the live decoder itself never panics (no overflowing addition, no out-of-range slice) *)
Theorem C07_decoder_no_panic : forall m b, dec_buffer m b <> DPanic.
Proof. exact dec_buffer_no_panic. Qed.

(* handshake deadline (session actor, tokio backend): whatever the peer's pacing - any inter-arrival
   gaps, one byte just inside each read timeout, silence - the handshake is decided (completed, failed
   or timed out) no later than HANDSHAKE_IVL after it started, and a timeout fires exactly then *)
Theorem C07_handshake_deadline : forall D cfg evs g now, now <= D ->
  decided_at (hs_loop false D cfg g now evs) <= D /\
  (forall t, hs_loop false D cfg g now evs = HsTimeout t -> t = D).
Proof. exact deadline_bounds_handshake. Qed.
(* the per-read timer of the pinned commit was re-armed by every read (repaired by a fix: commit) *)
Theorem C07_handshake_deadline_legacy_refuted :
  Forall (fun e => fst e < 300) drip_events /\
  hs_loop true 300 drip_cfg (e_new 0) 0 drip_events = HsTimeout 2700 /\
  hs_loop false 300 drip_cfg (e_new 0) 0 drip_events = HsTimeout 300.
Proof. split; [repeat constructor|]. vm_compute. split; reflexivity. Qed.

Example C07_example :
  let cfg := legacy_witness_cfg in
  g_inv (e_new 0) /\
  (* 256 frames with MORE: PeerError, not a panic *)
  has_err (snd (e_net cfg (fst (e_net cfg (e_new 0) legacy_witness_stream 0))
                      (concat (repeat (enc_codec (data_frame true [1])) 256)) 0)) = true.
Proof. split; [apply fresh_engine_inv | vm_compute; reflexivity]. Qed.

(* ---- MAXMSGSIZE / HANDSHAKE_IVL as the application sets them (option layer, Model/Options.v) ---- *)
From RZ Require Import Model.Options Proofs.OptionsProofs.
Theorem C07_maxmsgsize_option_semantics : forall (o : opts) (b : bytes), (match apply_opt o MAXMSGSIZE b with | inl o' => exists v, i64_of b = Some v /\ -1 <= v /\ maxmsgsize_of o' = v /\ (forall g, g <> F_maxmsgsize -> o' g = o g) | inr e => e = EVal MAXMSGSIZE /\ (i64_of b = None \/ exists v, i64_of b = Some v /\ v < -1) end)%Z.
Proof.
  intros o b. rewrite maxmsgsize_apply. destruct (i64_of b) as [v|]; [|auto]. destruct (Z.ltb_spec v (-1)).
  - split; [reflexivity|]. right. now exists v.
  - exists v. unfold maxmsgsize_of, oget. rewrite oset_same. repeat split; [lia|]. intros g Hg. now apply oset_other.
Qed.
Theorem C07_handshake_ivl_option_semantics : forall (o : opts) (b : bytes), (match apply_opt o HANDSHAKE_IVL b with | inl o' => exists v, i32_of b = Some v /\ 0 <= v /\ handshake_ivl_of o' = ivl_decode v /\ (forall g, g <> F_handshake_ivl -> o' g = o g) | inr e => e = EVal HANDSHAKE_IVL /\ (i32_of b = None \/ exists v, i32_of b = Some v /\ v < 0) end)%Z.
Proof. exact (off_semantics _ _ _ handshake_ivl_opt). Qed.
(* composed with the live decoder: MAXMSGSIZE = m set through set_option admits a frame of exactly m bytes and rejects
   anything longer, whatever follows in the buffer *)
From RZ Require Import Model.EngineCfg Proofs.OptionsEngine.
Theorem C07_maxmsgsize_option_limit : forall (o : opts) (m : Z), (0 <= m <= 9223372036854775807)%Z -> exists o', apply_opt o MAXMSGSIZE (i64_bytes m) = inl o' /\ cfg_max_msg_size o' = m /\ (forall f rest, fits f -> len (f_payload f) = Z.to_N m -> dec_buffer (cfg_max_msg_size o') (enc_codec f ++ rest) = DFrame f (length (enc_codec f))) /\ (forall f rest, fits f -> Z.to_N m < len (f_payload f) -> dec_buffer (cfg_max_msg_size o') (enc_codec f ++ rest) = DErr).
Proof.
  intros o m H. exists (oset o F_maxmsgsize (VZ m)). rewrite maxmsgsize_apply, i64_roundtrip by (unfold i64r; lia).
  destruct (Z.ltb_spec m (-1)); [lia|]. split; [reflexivity|].
  change (cfg_max_msg_size (oset o F_maxmsgsize (VZ m))) with m. split; [reflexivity|]. split.
  - intros f rest Hf Hl. apply limit_accepts_exact; [lia | assumption | assumption].
  - intros f rest Hf Hl. apply limit_rejects_above; [lia | assumption | assumption].
Qed.
Theorem C07_maxmsgsize_option_get_after_set : forall (o : opts) (v : Z), (-1 <= v <= 9223372036854775807)%Z -> exists o', apply_opt o MAXMSGSIZE (i64_bytes v) = inl o' /\ retrieve_opt o' MAXMSGSIZE = GOk (i64_bytes v).
Proof.
  intros o v H. exists (oset o F_maxmsgsize (VZ v)). rewrite maxmsgsize_apply, i64_roundtrip by (unfold i64r; lia).
  destruct (Z.ltb_spec v (-1)); [lia|]. split; [reflexivity|].
  now rewrite (retrieve_opt_rule _ MAXMSGSIZE GI64 F_maxmsgsize eq_refl), oset_same.
Qed.
