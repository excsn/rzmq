(* C10 - REQ and REP enforce strict alternation for every call history.

   Model: Model/ReqRep.v - shared socket state + one program of send | recv | send_multipart |
   recv_multipart calls per task, cut at the lock scopes and await points of req_socket.rs /
   rep_socket.rs, interleaved with peer events.  All theorems quantify over every number of peers and
   tasks, every program and every schedule `xs`; `qnonoverlap` / `pnonoverlap` restrict to schedules
   in which no two calls overlap (any number of tasks, peer events anywhere).

   What the code does (and the model therefore proves):
   * the check-then-act windows in REQ send / REQ recv / REP recv let two racing calls both succeed:
     `*_refuted` (concrete schedules, replayed on the real sockets by the check);
   * outside that class (no overlapping calls) the successful calls follow the alternation automaton:
     `*_alternates_outside`; with no resets (peer detach, failed recv) and single-frame replies that is
     literally send, recv, send, ... / recv, send, recv, ...: `*_strict_alternation`;
   * REP send takes the pending request atomically, so for EVERY schedule a reply is addressed with the
     pipe and routing prefix stored by the immediately preceding successful recv: `rep_reply_to_requester`;
   * a call refused with InvalidState by the state check that opens it has changed nothing, for EVERY
     schedule (REQ and REP); REQ recv's second InvalidState exit ("state changed while waiting") changes
     nothing when calls do not overlap and can undo a concurrent successful send when they do.
   The invariants behind these theorems are in Proofs/ReqRepProofs.v. *)
From RZ Require Import Base.Prelude Model.Balancer Model.ReqRep.
From RZ Require Import Proofs.ReqRepProofs.

Theorem C10_req_alternates_outside : forall n tmo progs xs, qnonoverlap xs (qinit n tmo progs) = true -> req_accepts (s_trace (qrun xs (qinit n tmo progs))) = true.
Proof. intros n tmo progs xs H. apply (req_outside n tmo progs xs H). Qed.
Theorem C10_req_alternates_single_task : forall n tmo prog xs, only_task0 xs -> req_accepts (s_trace (qrun xs (qinit n tmo [prog]))) = true.
Proof.
  intros n tmo prog xs H. apply C10_req_alternates_outside, single_task_nonoverlap; [simpl; lia | exact H].
Qed.
Theorem C10_req_strict_alternation : forall tr, req_accepts tr = true -> plain tr -> alternates true tr = true.
Proof.
  unfold req_accepts. intros tr H Hp. apply (alternates_of_accepts tr A0); try discriminate; [exact Hp|].
  destruct (arun tr (Some A0)); discriminate.
Qed.
(* two tasks, one send() each, six steps: both succeed, both requests reach the peer *)
Theorem C10_req_alternates_refuted : exists n tmo progs xs, req_accepts (s_trace (qrun xs (qinit n tmo progs))) = false /\ ok_ops (s_log (qrun xs (qinit n tmo progs))) = [OSend; OSend] /\ map fst (q_out (s_sh (qrun xs (qinit n tmo progs)))) = [0%N; 0%N].
Proof. exact req_alternates_refuted. Qed.
(* two racing recvs both succeed when two replies are queued (late reply of an abandoned exchange,
   or a peer that answers twice) *)
Theorem C10_req_recv_race_refuted : exists n tmo progs xs, req_accepts (s_trace (qrun xs (qinit n tmo progs))) = false /\ ok_ops (s_log (qrun xs (qinit n tmo progs))) = [OSend; ORecv; ORecv].
Proof.
  exists 1, false, [[mkCall OSend 11; mkCall ORecv 0]; [mkCall ORecv 0]],
    [ST 0; ST 0; ST 0; SE (QReply 0 [0; 21]); SE (QReply 0 [0; 22]); ST 0; ST 1; ST 0; ST 1; ST 0; ST 1]%N.
  vm_compute. auto.
Qed.

Theorem C10_req_check_failed_changes_nothing : forall n tmo progs xs, Forall check_failed_clean (s_log (qrun xs (qinit n tmo progs))).
Proof.
  intros. apply (sys_inv_run QStart qstep qestep qobs_eqb (fun _ _ => True) (fun _ _ => pc_okq_all) check_failed_clean); auto.
  - reflexivity.
  - intros t c pc d sh _ _ HL. generalize (qstep_all t c pc d sh HL). destruct (qstep t c pc sh) as [[[? ?] ?]|]; auto.
  - intros e sh _ _. destruct (qestep e sh). auto.
  - left. intros ? ? ? ? ? ? H. exact H.
Qed.
Theorem C10_req_failed_calls_change_nothing_outside : forall n tmo progs xs, qnonoverlap xs (qinit n tmo progs) = true -> Forall failed_clean (s_log (qrun xs (qinit n tmo progs))).
Proof. intros n tmo progs xs H. apply (req_outside n tmo progs xs H). Qed.
(* with overlap: task 0's recv is woken by the detach of its peer and decides "InvalidState"; before it
   takes the final lock task 1 completes a send; the failing recv then resets ExpectingReply, and task 1's
   own recv is refused although nothing but task 0's failing call intervened *)
Theorem C10_req_failed_calls_change_nothing_refuted : exists n tmo progs xs e, In e (s_log (qrun xs (qinit n tmo progs))) /\ e_res e = RInvalid true /\ e_dirty e = true /\ map (fun e => (e_task e, c_op (e_call e), e_res e)) (s_log (qrun xs (qinit n tmo progs))) = [(0, OSend, ROk []); (1, OSend, ROk []); (0, ORecv, RInvalid true); (1, ORecv, RInvalid false)].
Proof.
  exists 2, false, [[mkCall OSend 11; mkCall ORecv 0]; [mkCall OSend 13; mkCall ORecv 0]],
    ([ST 0; ST 0; ST 0; ST 0; ST 0; SE (QDetachCore 0); SE (QDetachSock 0); ST 0; ST 0;
      ST 1; ST 1; ST 1; ST 0; SE (QReply 1 [0; 21]); ST 1])%N,
    (mkEntry 0 (mkCall ORecv 0) (RInvalid true) true).
  vm_compute. intuition.
Qed.

Theorem C10_rep_alternates_outside : forall n tmo progs xs, pnonoverlap xs (pinit n tmo progs) = true -> rep_accepts (s_trace (prun xs (pinit n tmo progs))) = true.
Proof. intros n tmo progs xs H. unfold rep_accepts. rewrite (rep_outside n tmo progs xs H). reflexivity. Qed.
Theorem C10_rep_alternates_single_task : forall n tmo prog xs, only_task0 xs -> rep_accepts (s_trace (prun xs (pinit n tmo [prog]))) = true.
Proof.
  intros n tmo prog xs H. apply C10_rep_alternates_outside, single_task_nonoverlap; [simpl; lia | exact H].
Qed.
Theorem C10_rep_strict_alternation : forall tr, rep_accepts tr = true -> pplain tr -> palternates None tr = true.
Proof.
  unfold rep_accepts. intros tr H Hp. apply palternates_of_accepts; [exact Hp|].
  destruct (prunA tr (Some None)); discriminate.
Qed.
(* two tasks, one recv() each: both succeed; the reply goes to the second requester, the first is never answered *)
Theorem C10_rep_alternates_refuted : exists n tmo progs xs, rep_accepts (s_trace (prun xs (pinit n tmo progs))) = false /\ ok_ops (s_log (prun xs (pinit n tmo progs))) = [ORecv; ORecv; OSend] /\ p_out (s_sh (prun xs (pinit n tmo progs))) = [(1, [0; 51])]%N /\ map (fun e => (e_task e, e_res e)) (s_log (prun xs (pinit n tmo progs))) = [(0, ROk [31%N]); (1, ROk [33%N]); (0, ROk []); (1, RInvalid false)].
Proof.
  exists 2, false, [[mkCall ORecv 0; mkCall OSend 51]; [mkCall ORecv 0; mkCall OSend 53]]%N,
    ([SE (PReq 0 [0; 31]); SE (PReq 1 [0; 33]); ST 0; ST 1; ST 0; ST 1; ST 0; ST 1; ST 0; ST 1;
      ST 0; ST 0; ST 1])%N.
  vm_compute. auto.
Qed.
(* every schedule: the commit event before a take is the recv that stored exactly this (pipe, prefix),
   and everything handed to a peer is prefix ++ payload of such a take, on that pipe *)
Theorem C10_rep_reply_to_requester : forall n tmo progs xs, let s := prun xs (pinit n tmo progs) in (forall tr1 i tr2, s_trace s = tr1 ++ PETake i :: tr2 -> exists tr0, tr1 = tr0 ++ [PERecv i]) /\ Forall (out_ok (s_trace s)) (p_out (s_sh s)).
Proof. exact rep_reply_to_requester. Qed.
Theorem C10_rep_failed_calls_change_nothing : forall n tmo progs xs, Forall failed_clean (s_log (prun xs (pinit n tmo progs))).
Proof. intros n tmo progs xs. apply (rep_all_schedules n tmo progs xs). Qed.

(* non-vacuity: two tasks taking turns on one REQ socket (no overlap) make progress *)
Example C10_nonoverlap_satisfiable :
  let progs := [[mkCall OSend 11; mkCall ORecv 0]; [mkCall ORecv 0; mkCall OSend 13; mkCall OSend 15]] in
  let xs := [ST 0; ST 0; ST 0; SE (QReply 0 [0; 21]); ST 1; ST 1; ST 1; ST 0; ST 1; ST 1; ST 1; ST 1]%N in
  qnonoverlap xs (qinit 1 false progs) = true /\
  map (fun e => (e_task e, c_op (e_call e), e_res e)) (s_log (qrun xs (qinit 1 false progs)))
  = [(0, OSend, ROk []); (1, ORecv, ROk [21%N]); (0, ORecv, RInvalid false); (1, OSend, ROk []); (1, OSend, RInvalid false)].
Proof. vm_compute. auto. Qed.
